(* ParseThm.v — proofs about Parse.v (C04, C03). *)
From Coq Require Import NArith ZArith List Bool.
Import ListNotations.
Require Import OPC.Uni OPC.Names OPC.NamesThm OPC.Codec OPC.Endpoint OPC.Parse.
Open Scope N_scope.

(* a response that documents no content (absent or empty map) is a no-content response, never an error *)
Theorem empty_content_is_no_content : response_plan [] = RNoContent.
Proof. reflexivity. Qed.

Lemma first_supported_skip pre rest :
  (forall c, In c pre -> response_source (fst c) = None) -> first_supported (pre ++ rest) = first_supported rest.
Proof.
  induction pre as [|[c h] pre IH]; intro H; [reflexivity|]. cbn [app first_supported].
  pose proof (H (c, h) (or_introl eq_refl)) as Hc. cbn [fst] in Hc. rewrite Hc. apply IH. intros c' Hc'. apply H. now right.
Qed.

Lemma first_supported_none content :
  first_supported content = None -> forall c, In c content -> response_source (fst c) = None.
Proof.
  induction content as [|[x h] l IH]; intros H c Hc; [destruct Hc|]. cbn [first_supported] in H.
  destruct (response_source x) eqn:E; [discriminate|]. destruct Hc as [<-|Hc]; [exact E | now apply IH].
Qed.

(* the first media type with a known source decides, whatever follows it *)
Theorem first_supported_wins : forall pre ct hs src rest,
  (forall c, In c pre -> response_source (fst c) = None) -> response_source ct = Some src ->
  first_supported (pre ++ (ct, hs) :: rest) = Some (src, hs).
Proof.
  intros pre ct hs src rest Hpre Hct. rewrite first_supported_skip by exact Hpre.
  cbn [first_supported]. now rewrite Hct.
Qed.

(* only when NO documented media type is supported is the response rejected (with a diagnostic), never silently *)
Theorem unsupported_only_is_error : forall content,
  content <> [] -> (forall c, In c content -> response_source (fst c) = None) -> response_plan content = RError.
Proof.
  intros content Hne Hall.
  assert (H : first_supported content = None) by (rewrite <- (app_nil_r content); now apply first_supported_skip).
  destruct content; [contradiction|]. unfold response_plan. now rewrite H.
Qed.

Theorem supported_is_never_error : forall content c src,
  In c content -> response_source (fst c) = Some src -> response_plan content <> RError.
Proof.
  intros content c src Hin Hsrc HE. unfold response_plan in HE. destruct content as [|c0 r]; [destruct Hin|].
  destruct (first_supported (c0 :: r)) as [[s [|]]|] eqn:E; try discriminate HE.
  rewrite (first_supported_none _ E _ Hin) in Hsrc. discriminate.
Qed.

Theorem source_json : response_source (Some s_app_json) = Some SJson. Proof. reflexivity. Qed.
Theorem source_octet : response_source (Some s_octet) = Some SBytes. Proof. reflexivity. Qed.
Theorem source_text : forall rest, response_source (Some (s_text_ ++ rest)) = Some SText.
Proof. intros rest. reflexivity. Qed.

Theorem body_plan_json : forall s, str_eqb s s_app_json = true -> body_plan (Some s) true = BBody BJson.
Proof. intros s H. apply str_eqb_eq in H. subst s. reflexivity. Qed.
(* no more than the case list of bplan *)
Theorem body_plan_total : forall ct hs, exists p, body_plan ct hs = p /\ (p = BInvalidType \/ p = BMissingSchema \/ p = BUnsupported \/ exists t, p = BBody t).
Proof. intros ct hs. eexists; split; [reflexivity|]. destruct (body_plan ct hs); eauto. Qed.
