(* PyLitThm.v — C05: what the lexers of PyLit.v read back from the text spelt into literals and docstrings. *)
From Coq Require Import NArith List Bool Lia.
Import ListNotations.
Require Import OPC.gen.GenTables OPC.Uni OPC.Names OPC.NamesThm OPC.PyLit.
Open Scope N_scope.

#[local] Opaque printable.

Lemma lex_body_unfold q s :
  lex_body q s =
  match s with
  | [] => None
  | c :: s' =>
    if c =? q then Some ([], s')
    else if (c =? NL) || (c =? CR) || (c =? 0) then None
    else if c =? BS then
      match s' with
      | [] => None
      | e :: s'' =>
        if unmodelled_escape e then None
        else match simple_escape e with
             | Some v => match lex_body q s'' with Some (val, r) => Some (v :: val, r) | None => None end
             | None =>
                 match lex_body q s'' with Some (val, r) => Some (BS :: e :: val, r) | None => None end
             end
      end
    else match lex_body q s' with Some (val, r) => Some (c :: val, r) | None => None end
  end.
Proof. destruct s; reflexivity. Qed.

Lemma lex_body_close q s : lex_body q (q :: s) = Some ([], s).
Proof. rewrite lex_body_unfold. rewrite N.eqb_refl. reflexivity. Qed.

Lemma lex_body_plain q c s :
  c <> q -> c <> NL -> c <> CR -> c <> 0 -> c <> BS ->
  lex_body q (c :: s) =
  match lex_body q s with Some (val, r) => Some (c :: val, r) | None => None end.
Proof.
  intros Hq Hn Hc H0 Hb. rewrite (lex_body_unfold q (c :: s)).
  rewrite (proj2 (N.eqb_neq c q) Hq), (proj2 (N.eqb_neq c NL) Hn), (proj2 (N.eqb_neq c CR) Hc),
          (proj2 (N.eqb_neq c 0) H0), (proj2 (N.eqb_neq c BS) Hb).
  reflexivity.
Qed.

Lemma lex_body_esc q e v s :
  BS <> q -> unmodelled_escape e = false -> simple_escape e = Some v ->
  lex_body q (BS :: e :: s) =
  match lex_body q s with Some (val, r) => Some (v :: val, r) | None => None end.
Proof.
  intros Hq Hu Hs. rewrite (lex_body_unfold q (BS :: e :: s)).
  rewrite (proj2 (N.eqb_neq BS q) Hq).
  change ((BS =? NL) || (BS =? CR) || (BS =? 0)) with false.
  change (BS =? BS) with true. cbv iota.
  rewrite Hu, Hs. reflexivity.
Qed.

Lemma escape_dq_cons c s :
  escape_dq (c :: s) = (if c =? 34 then [92; 34] else [c]) ++ escape_dq s.
Proof. reflexivity. Qed.

Lemma no_bs_nl_cons c s :
  no_bs_nl (c :: s) = negb ((c =? BS) || (c =? NL) || (c =? CR) || (c =? 0)) && no_bs_nl s.
Proof. reflexivity. Qed.

Lemma char_ok c :
  negb ((c =? BS) || (c =? NL) || (c =? CR) || (c =? 0)) = true ->
  c <> BS /\ c <> NL /\ c <> CR /\ c <> 0.
Proof. intros H. repeat split; intros ->; discriminate H. Qed.

Lemma lex_body_flat_map q (enc : N -> str) : forall s rest,
  (forall c t, In c s ->
     lex_body q (enc c ++ t) = match lex_body q t with Some (val, r) => Some (c :: val, r) | None => None end) ->
  lex_body q (flat_map enc s ++ q :: rest) = Some (s, rest).
Proof.
  induction s as [|c s IH]; intros rest H; cbn [flat_map app].
  - apply lex_body_close.
  - rewrite <- app_assoc, H by apply in_eq.
    rewrite IH; [reflexivity|]. intros c' t Hc'. apply H, in_cons, Hc'.
Qed.

Theorem dq_literal_roundtrip : forall s rest,
  no_bs_nl s = true -> lex_body DQ (escape_dq s ++ DQ :: rest) = Some (s, rest).
Proof.
  intros s rest Hn. apply lex_body_flat_map. intros c t Hc.
  unfold no_bs_nl in Hn. rewrite forallb_forall in Hn.
  destruct (char_ok c (Hn c Hc)) as (Hb & Hnl & Hcr & H0).
  destruct (N.eqb_spec c 34) as [->|NE].
  - apply (lex_body_esc DQ 34 34); [discriminate | reflexivity | reflexivity].
  - apply lex_body_plain; assumption.
Qed.

Lemma escape_dq_id : forall s, existsb (N.eqb DQ) s = false -> escape_dq s = s.
Proof.
  induction s as [|c s IH]; intros H; [reflexivity|].
  cbn [existsb] in H. apply orb_false_iff in H as [Hc Hs].
  rewrite escape_dq_cons, (IH Hs), N.eqb_sym. fold DQ. rewrite Hc. reflexivity.
Qed.

Theorem raw_in_dq : forall s rest,
  plain_dq s = true -> lex_body DQ (s ++ DQ :: rest) = Some (s, rest).
Proof.
  intros s rest H. unfold plain_dq in H. apply andb_prop in H as [Hn Hq].
  apply negb_true_iff in Hq. rewrite <- (escape_dq_id s Hq) at 1.
  apply dq_literal_roundtrip, Hn.
Qed.

Theorem raw_in_dq_quote_breaks : forall s rest,
  no_bs_nl s = true -> existsb (N.eqb DQ) s = true -> lex_body DQ (s ++ DQ :: rest) <> Some (s, rest).
Proof.
  induction s as [|c s IH]; intros rest Hn He.
  - discriminate He.
  - rewrite no_bs_nl_cons in Hn. apply andb_prop in Hn as [Hc Hn].
    apply char_ok in Hc as (Hb & Hnl & Hcr & H0).
    cbn [existsb] in He. cbn [app].
    destruct (N.eqb_spec DQ c) as [E|NE].
    + subst c. rewrite lex_body_close. discriminate.
    + cbn [orb] in He. rewrite lex_body_plain; try assumption; [ | congruence ].
      destruct (lex_body DQ (s ++ DQ :: rest)) as [[v r]|] eqn:E; [ | discriminate ].
      intros X. injection X as X1 X2. subst v r.
      exact (IH rest Hn He E).
Qed.

Lemma has_triple_3 a b c t :
  has_triple (a :: b :: c :: t) = ((a =? DQ) && (b =? DQ) && (c =? DQ)) || has_triple (b :: c :: t).
Proof. reflexivity. Qed.

Lemma has_triple_tail a t : has_triple (a :: t) = false -> has_triple t = false.
Proof.
  destruct t as [|b [|c t]]; try reflexivity.
  rewrite has_triple_3. intros H. apply orb_false_iff in H. tauto.
Qed.

Lemma has_triple_cons_ne a t : a <> DQ -> has_triple (a :: t) = has_triple t.
Proof.
  intros H. destruct t as [|b [|c t]]; try reflexivity.
  rewrite has_triple_3, (proj2 (N.eqb_neq a DQ) H). reflexivity.
Qed.

Definition hd_not_dq (l : str) : Prop := match l with x :: _ => x <> DQ | [] => True end.

Lemma escape_dq_hd : forall s, hd_not_dq (escape_dq s).
Proof.
  destruct s as [|c s]; [exact I|].
  rewrite escape_dq_cons. destruct (N.eqb_spec c 34) as [E|NE]; cbn [app hd_not_dq].
  - discriminate.
  - exact NE.
Qed.

Theorem escape_dq_no_triple : forall c, has_triple (escape_dq c) = false.
Proof.
  induction c as [|x s IH]; [reflexivity|].
  rewrite escape_dq_cons. destruct (N.eqb_spec x 34) as [E|NE]; cbn [app].
  - rewrite has_triple_cons_ne by discriminate.
    pose proof (escape_dq_hd s) as Hh. destruct (escape_dq s) as [|b [|c t]]; try reflexivity.
    rewrite has_triple_3, (proj2 (N.eqb_neq b DQ) Hh), andb_false_r. exact IH.
  - rewrite has_triple_cons_ne by exact NE. exact IH.
Qed.

Lemma scan_plain c s : c <> BS -> c <> DQ ->
  scan_triple (c :: s) = match scan_triple s with Some (t, r) => Some (c :: t, r) | None => None end.
Proof.
  intros Hb Hd. cbn [scan_triple]. rewrite (proj2 (N.eqb_neq c BS) Hb), (proj2 (N.eqb_neq c DQ) Hd). reflexivity.
Qed.

Lemma scan_bs e s :
  scan_triple (BS :: e :: s) = match scan_triple s with Some (t, r) => Some (BS :: e :: t, r) | None => None end.
Proof. reflexivity. Qed.

Lemma scan_close rest : scan_triple (DQ :: DQ :: DQ :: rest) = Some ([], rest).
Proof. reflexivity. Qed.

Lemma scan_dq_no d1 d2 s : (d1 =? DQ) && (d2 =? DQ) = false ->
  scan_triple (DQ :: d1 :: d2 :: s) =
  match scan_triple (d1 :: d2 :: s) with Some (t, r) => Some (DQ :: t, r) | None => None end.
Proof. intros H. cbn [scan_triple]. change (DQ =? BS) with false. change (DQ =? DQ) with true. cbv iota. rewrite H. reflexivity. Qed.

Lemma scan_gen : forall n t rest, (length t <= n)%nat -> has_triple t = false ->
  scan_triple (t ++ 32 :: DQ :: DQ :: DQ :: rest) = Some (t ++ [32], rest).
Proof.
  (* a backslash consumes two characters: induction on a bound of the length *)
  induction n as [|n IHn]; intros t rest Hl Ht.
  - destruct t as [|c t']; [reflexivity | inversion Hl].
  - destruct t as [|c t']; [reflexivity|].
    cbn [length] in Hl. apply le_S_n in Hl.
    destruct (N.eqb_spec c BS) as [Eb|Nb].
    + subst c. destruct t' as [|e t''].
      * cbn [app]. rewrite scan_bs, scan_close. reflexivity.
      * cbn [app]. rewrite scan_bs.
        cbn [length] in Hl.
        rewrite (IHn t'' rest); [reflexivity | apply le_S_n, le_S, Hl | ].
        apply (has_triple_tail e), (has_triple_tail BS). exact Ht.
    + assert (IH : scan_triple (t' ++ 32 :: DQ :: DQ :: DQ :: rest) = Some (t' ++ [32], rest)).
      { apply IHn; [exact Hl | apply (has_triple_tail c); exact Ht]. }
      destruct (N.eqb_spec c DQ) as [Ed|Nd].
      * subst c. destruct t' as [|d1 [|d2 t'']]; cbn [app] in IH |- *.
        -- rewrite scan_dq_no by reflexivity. rewrite IH. reflexivity.
        -- rewrite scan_dq_no by (rewrite andb_comm; reflexivity). rewrite IH. reflexivity.
        -- rewrite has_triple_3 in Ht. apply orb_false_iff in Ht as [Ht _].
           change (DQ =? DQ) with true in Ht. cbn [andb] in Ht.
           rewrite scan_dq_no by exact Ht. rewrite IH. reflexivity.
      * cbn [app]. rewrite scan_plain by assumption. rewrite IH. reflexivity.
Qed.

Lemma safe_docstring_shape c rest :
  lex_docstring (safe_docstring c ++ rest) = scan_triple (32 :: c ++ 32 :: DQ :: DQ :: DQ :: rest).
Proof. unfold safe_docstring, TQ. rewrite <- !app_assoc. destruct (has_bs c); reflexivity. Qed.

Theorem docstring_safe : forall c rest,
  has_triple c = false ->
  lex_docstring (safe_docstring c ++ rest) = Some ([32] ++ c ++ [32], rest).
Proof.
  intros c rest Ht. rewrite safe_docstring_shape, scan_plain by discriminate.
  rewrite (scan_gen (length c) c rest (le_n _) Ht). reflexivity.
Qed.

Theorem docstring_escaped_safe : forall c rest,
  lex_docstring (safe_docstring (escape_dq c) ++ rest) = Some ([32] ++ escape_dq c ++ [32], rest).
Proof. intros c rest. apply docstring_safe, escape_dq_no_triple. Qed.

Theorem docstring_refuted : exists c rest,
  has_triple c = true /\ lex_docstring (safe_docstring c ++ rest) <> Some ([32] ++ c ++ [32], rest).
Proof.
  exists [34; 34; 34], []. split; [reflexivity|].
  vm_compute. discriminate.
Qed.

Theorem dq_trailing_backslash_refuted : exists s, lex_body DQ (escape_dq s ++ [DQ]) = None.
Proof. exists [92]. reflexivity. Qed.

Definition repr_printable (s : str) : bool :=
  forallb (fun c => (32 <=? c) && negb (c =? 127) && ((c <? 127) || printable c)) s.

Lemma repr_char_printable q c :
  (32 <=? c) && negb (c =? 127) && ((c <? 127) || printable c) = true ->
  repr_char q c = if (c =? q) || (c =? BS) then [BS; c] else [c].
Proof.
  intros H. apply andb_prop in H as [H H3]. apply andb_prop in H as [H1 H2]. apply negb_true_iff in H2.
  unfold repr_char. destruct ((c =? q) || (c =? BS)); [reflexivity|].
  destruct (N.eqb_spec c 9) as [->|_]; [discriminate H1|].
  destruct (N.eqb_spec c 10) as [->|_]; [discriminate H1|].
  destruct (N.eqb_spec c 13) as [->|_]; [discriminate H1|].
  rewrite N.ltb_antisym, H1, H2. cbn [negb orb].
  destruct (c <? 127); [reflexivity|]. cbn [orb] in H3. rewrite H3. reflexivity.
Qed.

Lemma lex_body_esc_self q c s : (q = DQ \/ q = SQ) -> c = q \/ c = BS ->
  lex_body q (BS :: c :: s) = match lex_body q s with Some (val, r) => Some (c :: val, r) | None => None end.
Proof.
  intros Hq Hc. apply lex_body_esc; destruct Hq as [-> | ->], Hc as [-> | ->]; (discriminate || reflexivity).
Qed.

Lemma repr_body q : (q = DQ \/ q = SQ) -> forall s rest, repr_printable s = true ->
  lex_body q (flat_map (repr_char q) s ++ q :: rest) = Some (s, rest).
Proof.
  intros Hq s rest H. apply lex_body_flat_map. intros c t Hc.
  unfold repr_printable in H. rewrite forallb_forall in H. specialize (H c Hc).
  rewrite (repr_char_printable q c H).
  apply andb_prop in H as [H _]. apply andb_prop in H as [H _].
  destruct (N.eqb_spec c q) as [Eq|NE]; [apply lex_body_esc_self; auto|].
  destruct (N.eqb_spec c BS) as [Eb|Nb]; [apply lex_body_esc_self; auto|].
  (* NL, CR and NUL are below 32 *)
  apply lex_body_plain; [assumption | | | | assumption]; intros ->; discriminate H.
Qed.

Lemma repr_quote_cases s : repr_quote s = DQ \/ repr_quote s = SQ.
Proof. unfold repr_quote. destruct (existsb (N.eqb SQ) s && negb (existsb (N.eqb DQ) s)); auto. Qed.

Lemma repr_roundtrip_rest : forall s tail, repr_printable s = true -> lex_string (py_repr s ++ tail) = Some (s, tail).
Proof.
  intros s tail H. unfold py_repr. cbn [app lex_string]. rewrite <- app_assoc. cbn [app].
  destruct (repr_quote_cases s) as [-> | ->]; (apply repr_body; [auto | exact H]).
Qed.

Theorem repr_roundtrip_printable : forall s,
  repr_printable s = true -> lex_string (py_repr s) = Some (s, []).
Proof. intros s H. rewrite <- (app_nil_r (py_repr s)). apply repr_roundtrip_rest, H. Qed.

Print Assumptions dq_literal_roundtrip.
Print Assumptions raw_in_dq.
Print Assumptions raw_in_dq_quote_breaks.
Print Assumptions escape_dq_no_triple.
Print Assumptions docstring_safe.
Print Assumptions docstring_escaped_safe.
Print Assumptions docstring_refuted.
Print Assumptions dq_trailing_backslash_refuted.
Print Assumptions repr_roundtrip_printable.
