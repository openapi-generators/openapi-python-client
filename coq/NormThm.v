(* NormThm.v — C17: notational variants of a schema normalise to the same property tree (proofs about Norm.v). *)
From Coq Require Import NArith ZArith List Bool Lia.
Import ListNotations.
Require Import OPC.gen.GenTables OPC.Uni OPC.UniThm OPC.Names OPC.NamesFast OPC.PyLit OPC.Values OPC.Enums OPC.Norm.
Open Scope N_scope.

Lemma mem_null_app : forall l, mem_jty JTNull (l ++ [JTNull]) = true.
Proof.
  induction l as [|x l IH]; [reflexivity|].
  unfold mem_jty in *. cbn [app existsb]. rewrite IH. apply orb_true_r.
Qed.

Lemma pre_null : pre null_sch = null_sch.
Proof. reflexivity. Qed.

Lemma build_null : forall c e p n, build c e p null_sch n = k_null n.
Proof. reflexivity. Qed.

(* the nullable flag of the outermost schema object is not looked at by the builder *)
Lemma build_flag : forall c e p ty nl nl' en any one all items pfx fmt d o,
  build c e p (SSch ty nl en any one all items pfx fmt d o) = build c e p (SSch ty nl' en any one all items pfx fmt d o).
Proof. reflexivity. Qed.

Lemma build_ssch : forall c e p ty nl en any one all items pfx fmt d o,
  build c e p (SSch ty nl en any one all items pfx fmt d o)
  = node_plain c e p ty en any one all (map (build c e p) any) (map (build c e p) one)
               (option_map (build_g c e p) items) (map (build_g c e p) pfx) fmt d o.
Proof. reflexivity. Qed.

Definition unflag (s : sch) : sch :=
  match s with
  | SRef r => SRef r
  | SSch ty _ en any one all items pfx fmt d o => SSch ty false en any one all items pfx fmt d o
  end.
(* the schema without the flag: what handle_nullable makes of it, once nested, twice at a top position *)
Definition explicit (top : bool) (s : sch) : sch := unflag (if top then hn_again (hn_again s) else hn_again s).

Definition pre_kids (s : sch) : sch :=
  match s with
  | SRef r => SRef r
  | SSch ty nl en any one all items pfx fmt d o =>
      SSch ty nl en (map pre any) (map pre one) (map pre all) (option_map pre items) (map pre pfx) fmt d o
  end.
Lemma pre_hn : forall s, pre s = hn_again (pre_kids s).
Proof. destruct s; reflexivity. Qed.
(* handle_nullable only asks which lists are empty; what it adds is already validated *)
Lemma pre_kids_hn : forall s, pre_kids (hn_again s) = hn_again (pre_kids s).
Proof.
  destruct s as [r|ty nl en any one all items pfx fmt d o]; [reflexivity|]. cbn [hn_again pre_kids]. unfold hn.
  destruct nl; [|reflexivity]. destruct ty as [|t|l]; try reflexivity.
  destruct one; [destruct any; [destruct all|]|]; cbn [negb pre_kids map]; rewrite ?map_app; reflexivity.
Qed.
Lemma pre_kids_unflag : forall s, pre_kids (unflag s) = unflag (pre_kids s).
Proof. destruct s; reflexivity. Qed.
Lemma hn_unflag : forall s, hn_again (unflag s) = unflag s.
Proof. destruct s; reflexivity. Qed.
Lemma build_unflag : forall c e p s, build c e p (unflag s) = build c e p s.
Proof. destruct s; reflexivity. Qed.

Theorem norm_explicit : forall c e parent top s name, norm c e parent top s name = norm c e parent top (explicit top s) name.
Proof.
  intros. unfold norm, explicit, pre_at. rewrite !pre_hn.
  destruct top; rewrite pre_kids_unflag, !hn_unflag, build_unflag, !pre_kids_hn; reflexivity.
Qed.

(* 3.0 nullable vs 3.1 type list *)
Theorem nullable_forms_equal : forall c e parent top t en any one all items pfx fmt d o name,
  norm c e parent top (SSch (TyOne t) true en any one all items pfx fmt d o) name
  = norm c e parent top (SSch (TyList [t; JTNull]) false en any one all items pfx fmt d o) name.
Proof. intros. rewrite norm_explicit. destruct top, t; reflexivity. Qed.

Definition add_null (l : list jty) : list jty := if mem_jty JTNull l then l else l ++ [JTNull].

Theorem nullable_typelist_equal : forall c e parent top l en any one all items pfx fmt d o name,
  norm c e parent top (SSch (TyList l) true en any one all items pfx fmt d o) name
  = norm c e parent top (SSch (TyList (add_null l)) false en any one all items pfx fmt d o) name.
Proof.
  intros. rewrite norm_explicit. destruct top; [|reflexivity].
  unfold explicit, add_null. cbn [hn_again hn negb]. destruct (mem_jty JTNull l) eqn:E; now rewrite ?E, ?mem_null_app.
Qed.

(* nullable union == explicit null member(s) *)
(* how many null members the validators add: one for a nested schema, two where the validators run twice *)
Definition nulls (top : bool) : list sch := if top then [null_sch; null_sch] else [null_sch].

Lemma map_pre_nulls : forall top, map pre (nulls top) = nulls top.
Proof. destruct top; reflexivity. Qed.

Theorem nullable_oneof_equal : forall c e parent top en any one all items pfx fmt d o name,
  one <> [] ->
  norm c e parent top (SSch TyAbsent true en any one all items pfx fmt d o) name
  = norm c e parent top (SSch TyAbsent false en any (one ++ nulls top) all items pfx fmt d o) name.
Proof.
  intros c e parent top en any one all items pfx fmt d o name Hne. rewrite norm_explicit.
  destruct one; [congruence|]. destruct top; unfold explicit; cbn [hn_again hn negb unflag app nulls]; now rewrite <- ?app_assoc.
Qed.

Theorem nullable_anyof_equal : forall c e parent top en any all items pfx fmt d o name,
  any <> [] ->
  norm c e parent top (SSch TyAbsent true en any [] all items pfx fmt d o) name
  = norm c e parent top (SSch TyAbsent false en (any ++ nulls top) [] all items pfx fmt d o) name.
Proof.
  intros c e parent top en any all items pfx fmt d o name Hne. rewrite norm_explicit.
  destruct any; [congruence|]. destruct top; unfold explicit; cbn [hn_again hn negb unflag app nulls]; now rewrite <- ?app_assoc.
Qed.

(* nullable allOf: oneOf [null, {allOf}] — null FIRST (and a second null after it where the validators run twice) *)
Theorem nullable_allof_equal : forall c e parent top en all items pfx fmt d o name,
  all <> [] ->
  norm c e parent top (SSch TyAbsent true en [] [] all items pfx fmt d o) name
  = norm c e parent top
      (SSch TyAbsent false en [] ([null_sch; SSch TyAbsent false [] [] [] all None [] None None o_none] ++ (if top then [null_sch] else []))
            [] items pfx fmt d o) name.
Proof.
  intros c e parent top en all items pfx fmt d o name Hne. rewrite norm_explicit.
  destruct all; [congruence|]. destruct top; reflexivity.
Qed.

(* where the validators run twice the single explicit null member is NOT what the code produces: the tree has one more None member *)
Definition cfg0 : cfg := {| literal_enums := false; field_prefix := [102;105;101;108;100;95] |}.
Definition s_str : sch := SSch (TyOne JString) false [] [] [] [] None [] None None o_none.

Theorem nullable_union_top_refuted :
  exists name,
    norm cfg0 (envl []) [] true (SSch TyAbsent true [] [] [s_str] [] None [] None None o_none) name
    <> norm cfg0 (envl []) [] true (SSch TyAbsent false [] [] [s_str; null_sch] [] None [] None None o_none) name.
Proof. exists [112]. vm_compute. discriminate. Qed.

(* 3.1 type list == anyOf of the single types *)
Lemma not_single_ref : forall (A : Type) (x : str -> A) (y : A) (l : list sch),
  (forall r, l <> [SRef r]) -> match l with [SRef r] => x r | _ => y end = y.
Proof. intros A x y l H. destruct l as [|[r|? ? ? ? ? ? ? ? ? ? ?] [|? ?]]; try reflexivity. now elim (H r). Qed.

Lemma dispatch_union : forall c p ty tk ka ko ha ki kp fmt d o name,
  ty_is ty JBoolean = false -> nonempty ka || nonempty ko || ty_is_list ty = true ->
  dispatch c p ty None tk ka ko ha ki kp fmt d o name = union_build name (ka ++ ko ++ tk) d.
Proof. intros c p ty tk ka ko ha ki kp fmt d o name HB HU. unfold dispatch. now rewrite HB, HU. Qed.

Lemma pre_at_unflagged : forall top ty en any one all items pfx fmt d o,
  pre_at top (SSch ty false en any one all items pfx fmt d o) = pre_kids (SSch ty false en any one all items pfx fmt d o).
Proof. destruct top; reflexivity. Qed.

(* o' is free: the union branch reads no other keyword of the wrapper *)
Theorem typelist_anyof_equal : forall c e parent top l items pfx fmt d o o' name,
  l <> [] ->
  norm c e parent top (SSch (TyList l) false [] [] [] [] items pfx fmt d o) name
  = norm c e parent top
      (SSch TyAbsent false [] (map (fun t => SSch (TyOne t) false [] [] [] [] items pfx fmt None o) l) [] [] None [] None d o') name.
Proof.
  intros c e parent top l items pfx fmt d o o' name Hne. unfold norm. rewrite !pre_at_unflagged. cbn [pre_kids map option_map].
  (* one lambda again, for not_single_ref and build_ssch *)
  rewrite map_map, (map_ext _ (fun t => SSch (TyOne t) false [] [] [] [] (option_map pre items) (map pre pfx) fmt None o))
    by reflexivity.
  rewrite !build_ssch. unfold node_plain. cbn [app map option_map nonempty].
  rewrite not_single_ref by (intros r; destruct l; discriminate).
  unfold pfd. cbn [type_copies map].
  rewrite dispatch_union by (reflexivity || apply orb_true_r).
  rewrite dispatch_union by (reflexivity || (destruct l; [congruence|reflexivity])).
  cbn [app]. rewrite app_nil_r, (map_map _ (build c e parent)). reflexivity.
Qed.

(* enum containing null == explicit union [null, enum of the rest] *)
Definition nonnull (en : list jval) : list jval := filter (fun j => negb (is_null j)) en.

Lemma enum_build_rest : forall en vt vals, enum_build en = BNullable vt vals -> enum_build (nonnull en) = BPlain vt vals.
Proof.
  intros en vt vals H. unfold enum_build, nonnull in *. rewrite filter_idem.
  destruct (filter (fun j => negb (is_null j)) en) as [|j0 nn] eqn:E; [discriminate|].
  destruct (negb (forallb (fun j => tag_eqb (tag_of j) (tag_of j0)) (j0 :: nn))); [discriminate|].
  assert (L : (length (j0 :: nn) <? length (j0 :: nn))%nat = false) by apply Nat.ltb_irrefl.
  rewrite L.
  destruct (all_ints (j0 :: nn)) as [vi|].
  - destruct (length (j0 :: nn) <? length en)%nat; congruence.
  - destruct (all_strs (j0 :: nn)) as [vs|]; [|discriminate].
    destruct (length (j0 :: nn) <? length en)%nat; congruence.
Qed.

Lemma pre_at_enum_null : forall top ty nl en items pfx fmt d o,
  g_enum_null ty nl = true ->
  pre_at top (SSch ty nl en [] [] [] items pfx fmt d o) = SSch ty nl en [] [] [] (option_map pre items) (map pre pfx) fmt d o.
Proof.
  intros top ty nl en items pfx fmt d o G. unfold g_enum_null in G.
  destruct ty as [|t|l]; [| |discriminate].
  - destruct top, nl; reflexivity.
  - destruct nl; [discriminate|]. destruct top; reflexivity.
Qed.

Lemma enum_null_not_bool : forall ty nl, g_enum_null ty nl = true -> ty_is ty JBoolean = false.
Proof.
  intros ty nl G. unfold g_enum_null in G. destruct ty as [|t|l]; try reflexivity.
  destruct nl; [discriminate|]. cbn [negb andb] in G. cbn [ty_is]. destruct t; try reflexivity; discriminate.
Qed.

Lemma build_enum_branch : forall c e p ty nl en items pfx fmt d o n,
  g_enum_null ty nl = true -> en <> [] ->
  build c e p (SSch ty nl en [] [] [] items pfx fmt d o) n
  = enum_branch c p ty en [] [] false (option_map (build_g c e p) items) (map (build_g c e p) pfx) fmt d o n.
Proof.
  intros c e p ty nl en items pfx fmt d o n G NE. destruct en; [congruence|].
  unfold build; cbn [build_g node node_plain andb app map nonempty]. unfold pfd, dispatch. now rewrite (enum_null_not_bool _ _ G).
Qed.

Lemma build_plain_enum : forall c e p ty nl en vt vals items pfx fmt d o n,
  g_enum_null ty nl = true -> enum_build en = BPlain vt vals ->
  build c e p (SSch ty nl en [] [] [] items pfx fmt d o) n = enum_direct c p vt vals d o n.
Proof.
  intros c e p ty nl en vt vals items pfx fmt d o n G H.
  rewrite build_enum_branch by first [exact G | intros ->; discriminate H]. unfold enum_branch. now rewrite H.
Qed.

Lemma build_null_enum : forall c e p ty nl en vt vals items pfx fmt d o n,
  g_enum_null ty nl = true -> enum_build en = BNullable vt vals ->
  build c e p (SSch ty nl en [] [] [] items pfx fmt d o) n = union_build n [k_null; enum_direct c p vt vals d o] d.
Proof.
  intros c e p ty nl en vt vals items pfx fmt d o n G H.
  rewrite build_enum_branch by first [exact G | intros ->; discriminate H]. unfold enum_branch.
  rewrite H. destruct ty; [reflexivity|reflexivity|discriminate G].
Qed.

Lemma build_explicit_pair : forall c e p s2 d o' n,
  build c e p (SSch TyAbsent false [] [] [null_sch; s2] [] None [] None d o') n
  = union_build n [k_null; build c e p s2] d.
Proof.
  intros. unfold build; cbn [build_g node node_plain andb app map null_sch]. unfold pfd. cbn [type_copies].
  now rewrite dispatch_union by reflexivity.
Qed.

Theorem enum_null_equal : forall c e parent top ty nl en vt vals items pfx fmt d o o' name,
  g_enum_null ty nl = true ->
  enum_build en = BNullable vt vals ->
  norm c e parent top (SSch ty nl en [] [] [] items pfx fmt d o) name
  = norm c e parent top
      (SSch TyAbsent false [] [] [null_sch; SSch ty nl (nonnull en) [] [] [] items pfx fmt d o] [] None [] None d o') name.
Proof.
  intros c e parent top ty nl en vt vals items pfx fmt d o o' name G HB.
  pose proof (enum_build_rest _ _ _ HB) as HR.
  pose proof (pre_at_enum_null false ty nl (nonnull en) items pfx fmt d o G) as P. unfold pre_at in P.
  unfold norm. rewrite (pre_at_enum_null top ty nl en items pfx fmt d o G), pre_at_unflagged. cbn [pre_kids map option_map].
  rewrite P, pre_null, (build_null_enum c e parent ty nl en vt vals _ _ fmt d o name G HB), build_explicit_pair.
  unfold union_build. cbn [build_members].
  now rewrite (build_plain_enum c e parent ty nl (nonnull en) vt vals _ _ fmt d o _ G HR).
Qed.

(* class names evaluate much faster through the tables of NamesFast *)
Lemma class_of_fast : forall c parent o name, class_of c parent o name =
  let basis := match o_title o with Some t => t | None => name end in
  class_name_f (last_seg (match parent with [] => basis | _ => pascal_case_f parent ++ pascal_case_f basis end) []) (field_prefix c).
Proof. intros. unfold class_of. now rewrite class_name_f_eq, !pascal_case_f_eq. Qed.

Definition s_a : jval := JStr [97].
(* what the type-list form does produce: the union of null, the enum, and for every listed type one more [null, enum] pair *)
Example enum_null_typelist_shape :
  norm cfg0 (envl []) [72] false (SSch (TyOne JString) true [s_a; JNull] [] [] [] None [] None None o_none) [112]
  = TUnion [112]
      [TLeaf LNone [112;95;116;121;112;101;95;48] None;
       TEnum false [112;95;116;121;112;101;95;49] [72;80;84;121;112;101;49] VStr [EStr [97]] None;
       TLeaf LNone [112;95;116;121;112;101;95;50;95;116;121;112;101;95;48] None;
       TEnum false [112;95;116;121;112;101;95;50;95;116;121;112;101;95;49] [72;80;84;121;112;101;50;84;121;112;101;49] VStr [EStr [97]] None;
       TLeaf LNone [112;95;116;121;112;101;95;51;95;116;121;112;101;95;48] None;
       TEnum false [112;95;116;121;112;101;95;51;95;116;121;112;101;95;49] [72;80;84;121;112;101;51;84;121;112;101;49] VStr [EStr [97]] None]
      None.
Proof. cbv -[class_of]. rewrite !class_of_fast. vm_compute. reflexivity. Qed.

(* inside a type list (also: a typed schema with nullable: true) the rewrite is expanded once more per listed type:
   three enum classes instead of one *)
Theorem enum_null_typelist_refuted :
  exists ty nl en name,
    g_enum_null ty nl = false /\
    norm cfg0 (envl []) [72] false (SSch ty nl en [] [] [] None [] None None o_none) name
    <> norm cfg0 (envl []) [72] false
         (SSch TyAbsent false [] [] [null_sch; SSch ty nl (nonnull en) [] [] [] None [] None None o_none] [] None [] None None o_none) name.
Proof.
  exists (TyOne JString), true, [s_a; JNull], [112]. split; [reflexivity|].
  rewrite enum_null_typelist_shape. intro H.
  (* six members against two: the class names need not be computed *)
  apply (f_equal (fun t => match t with TUnion _ ms _ => length ms | _ => 0%nat end)) in H. lazy in H. discriminate H.
Qed.

Example enum_null_guard_nontrivial :
  g_enum_null (TyOne JString) false = true /\ enum_build [s_a; JNull; JStr [98]] = BNullable VStr [EStr [97]; EStr [98]].
Proof. split; reflexivity. Qed.

(* single-reference wrapper == bare reference *)
Inductive wkind := WAllOf | WOneOf | WAnyOf.
Definition wrapper (k : wkind) (r : str) (ty : tyspec) (nl : bool) (en : list jval) (items : option sch) (pfx : list sch) (fmt : option str)
                   (d : option jval) (o : other) : sch :=
  match k with
  | WAllOf => SSch ty nl en [] [] [SRef r] items pfx fmt d o
  | WOneOf => SSch ty nl en [] [SRef r] [] items pfx fmt d o
  | WAnyOf => SSch ty nl en [SRef r] [] [] items pfx fmt d o
  end.

(* the wrapper with its own default: the existing class renamed, the default re-validated against it *)
Theorem wrapper_exact : forall c e parent top k r ty nl en items pfx fmt d o name,
  g_wrapper ty nl None = true ->
  norm c e parent top (wrapper k r ty nl en items pfx fmt d o) name = ref_build e r name d.
Proof.
  intros c e parent top k r ty nl en items pfx fmt d o name G. unfold g_wrapper in G.
  unfold norm, pre_at.
  destruct k, ty as [|t|l], nl, top; try discriminate G; reflexivity.
Qed.

Theorem single_ref_wrapper : forall c e parent top k r ty nl en items pfx fmt d o name,
  g_wrapper ty nl d = true ->
  norm c e parent top (wrapper k r ty nl en items pfx fmt d o) name = norm c e parent top (SRef r) name.
Proof.
  intros c e parent top k r ty nl en items pfx fmt d o name G.
  assert (d = None) by (unfold g_wrapper in G; destruct d; [discriminate|reflexivity]). subst d.
  rewrite (wrapper_exact c e parent top k r ty nl en items pfx fmt None o name G).
  unfold norm, pre_at. destruct top; reflexivity.
Qed.

(* the referenced schema's OWN default never reaches the referring property: it carries the referring schema's default or none *)
Theorem from_ref_default_from_parent : forall t name d,
  tree_default (from_ref t name d) = d \/ tree_default (from_ref t name d) = None.
Proof.
  intros t name d. destruct t as [|k n d0|lit n cls vt vals d0|n i|n ms d0|n cls]; destruct d as [v|]; cbn [from_ref tree_default]; auto.
  - destruct k; cbn [tree_default]; auto. destruct (jval_eqb v (JStr s_None)); cbn [tree_default]; auto.
  - destruct k; cbn [tree_default]; auto.
  - destruct (enum_default_ok lit cls vt vals v); cbn [tree_default]; auto.
Qed.

Theorem ref_target_default_dropped : forall c e parent top r name,
  tree_default (norm c e parent top (SRef r) name) = None.
Proof.
  intros. replace (norm c e parent top (SRef r) name) with (ref_build e r name None) by (unfold norm, pre_at; destruct top; reflexivity).
  unfold ref_build. destruct (e r) as [t|]; [|reflexivity].
  destruct (from_ref_default_from_parent t name None) as [H|H]; exact H.
Qed.

Theorem wrapper_target_default_dropped : forall c e parent top k r ty nl en items pfx fmt o name,
  g_wrapper ty nl None = true ->
  tree_default (norm c e parent top (wrapper k r ty nl en items pfx fmt None o) name) = None.
Proof.
  intros c e parent top k r ty nl en items pfx fmt o name G.
  rewrite (single_ref_wrapper c e parent top k r ty nl en items pfx fmt None o name G). apply ref_target_default_dropped.
Qed.

(* non-vacuity: the referenced enum has its own default, reference and wrapper carry none, a wrapper default replaces it *)
Example target_default_example :
  let e := envl [([67], TEnum false [67] [67] VStr [EStr [103]; EStr [114]] (Some (JStr [103])))] in
  norm cfg0 e [] false (SRef [67]) [112] = TEnum false [112] [67] VStr [EStr [103]; EStr [114]] None /\
  norm cfg0 e [] false (wrapper WOneOf [67] TyAbsent false [] None [] None None o_none) [112] = TEnum false [112] [67] VStr [EStr [103]; EStr [114]] None /\
  norm cfg0 e [] false (wrapper WOneOf [67] TyAbsent false [] None [] None (Some (JStr [114])) o_none) [112]
    = TEnum false [112] [67] VStr [EStr [103]; EStr [114]] (Some (JStr [114])).
Proof. repeat split; vm_compute; reflexivity. Qed.

(* a default on the wrapper is re-validated against the referenced class: a model reference makes the property an error *)
Theorem wrapper_default_refuted :
  exists e k r d name,
    g_wrapper TyAbsent false (Some d) = false /\
    norm cfg0 e [] false (wrapper k r TyAbsent false [] None [] None (Some d) o_none) name = TErr /\
    norm cfg0 e [] false (SRef r) name = TModel name [82].
Proof.
  exists (envl [([82], TModel [82] [82])]), WAllOf, [82], (JStr [120]), [112].
  split; [reflexivity|]. split; vm_compute; reflexivity.
Qed.

(* nullable on an untyped wrapper makes it a union: null LAST for oneOf/anyOf, null FIRST for allOf *)
Theorem wrapper_nullable_refuted :
  exists e r name,
    g_wrapper TyAbsent true None = false /\
    norm cfg0 e [] false (wrapper WOneOf r TyAbsent true [] None [] None None o_none) name
      = TUnion name [TModel (sub_name name 0) [82]; TLeaf LNone (sub_name name 1) None] None /\
    norm cfg0 e [] false (wrapper WAllOf r TyAbsent true [] None [] None None o_none) name
      = TUnion name [TLeaf LNone (sub_name name 0) None; TModel (sub_name name 1) [82]] None.
Proof.
  exists (envl [([82], TModel [82] [82])]), [82], [112].
  split; [reflexivity|]. split; vm_compute; reflexivity.
Qed.

(* the equivalence is not a congruence under an enclosing one-member composition: the passthrough test is syntactic *)
Theorem wrapper_not_congruent_refuted :
  exists e r name,
    norm cfg0 e [] false (SSch TyAbsent false [] [wrapper WAllOf r TyAbsent false [] None [] None None o_none] [] [] None [] None None o_none) name
      = TUnion name [TModel (sub_name name 0) [82]] None /\
    norm cfg0 e [] false (SSch TyAbsent false [] [SRef r] [] [] None [] None None o_none) name = TModel name [82].
Proof.
  exists (envl [([82], TModel [82] [82])]), [82], [112]. split; vm_compute; reflexivity.
Qed.

Example wrapper_guard_nontrivial :
  g_wrapper (TyOne JObject) true None = true /\
  norm cfg0 (envl [([82], TModel [82] [82])]) [] true
       (wrapper WAnyOf [82] (TyOne JObject) true [] None [] None None {| o_const := false; o_props := true; o_title := Some [84]; o_extra := true |}) [112]
  = TModel [112] [82].
Proof. split; vm_compute; reflexivity. Qed.

Theorem excl_bool_numeric_equal : forall m, hx {| b_lim := Some m; b_excl := XBool true |} = hx {| b_lim := None; b_excl := XNum m |}.
Proof. reflexivity. Qed.

Theorem hx_idempotent : forall b, hx (hx b) = hx b.
Proof. intros [[m|] [|[|]|x]]; reflexivity. Qed.

Theorem parser_choice : forall ct, choose_parser ct = PJson <-> ct = Some s_app_json.
Proof.
  intros [ct|]; unfold choose_parser; split; intro H; try discriminate.
  - destruct (str_eqb ct s_app_json) eqn:E; [|discriminate]. apply str_eqb_eq in E. congruence.
  - inversion H; subst. now rewrite str_eqb_refl.
Qed.

(* every source reaches the same loader with (its bytes, its content type) *)
Theorem loader_dispatch : forall (V : Type) (pj py : list N -> option V) (s : source),
  match s with
  | SFile content _ => get_document pj py s = load_yaml_or_json pj py content (content_type_of s)
  | SUrl (Some r) _ => get_document pj py s = load_yaml_or_json pj py (r_content r) (content_type_of s)
  | SUrl None _ => get_document pj py s = LFetchError
  end.
Proof. intros V pj py [content g|[r|] g]; reflexivity. Qed.

(* same bytes + same content type => same result, whichever way they arrived *)
Theorem file_url_same : forall (V : Type) (pj py : list N -> option V) content g h g',
  before_semi h = g ->
  get_document pj py (SFile content (Some g)) = get_document pj py (SUrl (Some {| r_content := content; r_ctype := Some h |}) g').
Proof. intros V pj py content g h g' H. cbn. rewrite H. reflexivity. Qed.

Theorem url_without_header_same : forall (V : Type) (pj py : list N -> option V) content g,
  get_document pj py (SFile content g) = get_document pj py (SUrl (Some {| r_content := content; r_ctype := None |}) g).
Proof. reflexivity. Qed.

Theorem json_parser_iff : forall (V : Type) (pj py : list N -> option V) data ct,
  (ct = Some s_app_json -> load_yaml_or_json pj py data ct = match pj data with Some v => LDoc v | None => LParseError PJson end) /\
  (ct <> Some s_app_json -> load_yaml_or_json pj py data ct = match py data with Some v => LDoc v | None => LParseError PYaml end).
Proof.
  intros V pj py data ct. split; intro H; unfold load_yaml_or_json.
  - apply parser_choice in H. rewrite H. reflexivity.
  - destruct (choose_parser ct) eqn:E; [apply parser_choice in E; contradiction|reflexivity].
Qed.

(* the comparison is exact: parameters are cut at the first semicolon, but case and surrounding blanks are not normalised *)
Example ctype_params_cut :
  content_type_of (SUrl (Some {| r_content := []; r_ctype := Some (s_app_json ++ [59;32;99;104;97;114;115;101;116;61;117;116;102;45;56]) |}) None) = Some s_app_json.
Proof. reflexivity. Qed.
Example ctype_case_sensitive :
  choose_parser (content_type_of (SUrl (Some {| r_content := []; r_ctype := Some [65;112;112;108;105;99;97;116;105;111;110;47;74;83;79;78] |}) None)) = PYaml
  /\ choose_parser (content_type_of (SUrl (Some {| r_content := []; r_ctype := Some (s_app_json ++ [32;59;32;99;104;97;114;115;101;116;61;117;116;102;45;56]) |}) None)) = PYaml.
Proof. split; reflexivity. Qed.

(* congruence: sub-schemas that build the same trees are interchangeable
   (tuple arrays: prefixItems members and items; union members).  The builder never compares two sub-schemas with each other:
   no member is dropped or merged, whatever notation its siblings are written in. *)
Definition kid_eq (k k' : kid) : Prop := forall n, k n = k' n.
Definition akid_eq (k k' : akid) : Prop := forall b n, k b n = k' b n.
Definition oakid_eq (k k' : option akid) : Prop :=
  match k, k' with None, None => True | Some a, Some b => akid_eq a b | _, _ => False end.

Lemma kids_refl : forall ks, Forall2 kid_eq ks ks.
Proof. induction ks; constructor; [intro; reflexivity|assumption]. Qed.
Lemma akids_refl : forall ks, Forall2 akid_eq ks ks.
Proof. induction ks; constructor; [intros ? ?; reflexivity|assumption]. Qed.
Lemma oakid_refl : forall k, oakid_eq k k.
Proof. destruct k; cbn; [intros ? ?; reflexivity|exact I]. Qed.

Lemma build_members_ext : forall ks ks' name i, Forall2 kid_eq ks ks' -> build_members name i ks = build_members name i ks'.
Proof.
  intros ks ks' name i H. revert i. induction H as [|k k' ks ks' Hk _ IH]; intro i; [reflexivity|].
  cbn [build_members]. rewrite Hk, IH. reflexivity.
Qed.

Lemma union_build_ext : forall ks ks' name d, Forall2 kid_eq ks ks' -> union_build name ks d = union_build name ks' d.
Proof. intros. unfold union_build. rewrite (build_members_ext ks ks' name 0 H). reflexivity. Qed.

Lemma array_members_ext : forall ki ki' kp kp', oakid_eq ki ki' -> Forall2 akid_eq kp kp' ->
  Forall2 akid_eq (array_members ki kp) (array_members ki' kp').
Proof.
  intros ki ki' kp kp' Hi Hp. unfold array_members. apply Forall2_app; [assumption|].
  destruct ki, ki'; cbn in Hi; try contradiction; repeat constructor; assumption.
Qed.

Lemma revalidated_ext : forall ks ks', Forall2 akid_eq ks ks' -> Forall2 kid_eq (map (fun k : bool -> kid => k true) ks) (map (fun k : bool -> kid => k true) ks').
Proof. intros ks ks' H. induction H; cbn [map]; constructor; [intro; apply H|assumption]. Qed.

Lemma dispatch_ext : forall c p ty ec tk tk' ka ka' ko ko' ha ki ki' kp kp' fmt d o name,
  Forall2 kid_eq tk tk' -> Forall2 kid_eq ka ka' -> Forall2 kid_eq ko ko' -> oakid_eq ki ki' -> Forall2 akid_eq kp kp' ->
  dispatch c p ty ec tk ka ko ha ki kp fmt d o name = dispatch c p ty ec tk' ka' ko' ha ki' kp' fmt d o name.
Proof.
  intros c p ty ec tk tk' ka ka' ko ko' ha ki ki' kp kp' fmt d o name Ht Ha Ho Hi Hp.
  unfold dispatch. destruct (ty_is ty JBoolean); [reflexivity|]. destruct ec; [reflexivity|].
  assert (Na : nonempty ka = nonempty ka') by (destruct Ha; reflexivity).
  assert (No : nonempty ko = nonempty ko') by (destruct Ho; reflexivity).
  rewrite <- Na, <- No.
  destruct (nonempty ka || nonempty ko || ty_is_list ty).
  { apply union_build_ext. repeat apply Forall2_app; assumption. }
  destruct (o_const o); [reflexivity|].
  destruct (ty_is ty JString); [reflexivity|]. destruct (ty_is ty JNumber); [reflexivity|].
  destruct (ty_is ty JInteger); [reflexivity|]. destruct (ty_is ty JTNull); [reflexivity|].
  destruct (ty_is ty JArray); [|reflexivity].
  pose proof (array_members_ext ki ki' kp kp' Hi Hp) as Hm.
  destruct Hm as [|k k' ks ks' Hk Hks]; [reflexivity|].
  destruct Hks as [|k2 k2' ks ks' Hk2 Hks].
  - rewrite (Hk false). reflexivity.
  - rewrite (union_build_ext (map (fun k : bool -> kid => k true) (k :: k2 :: ks)) (map (fun k : bool -> kid => k true) (k' :: k2' :: ks')) (item_name name) None); [reflexivity|].
    apply revalidated_ext. repeat constructor; assumption.
Qed.

Lemma type_copies_ext : forall c p ty ka ka' ko ko' ha ki ki' kp kp' fmt o,
  Forall2 kid_eq ka ka' -> Forall2 kid_eq ko ko' -> oakid_eq ki ki' -> Forall2 akid_eq kp kp' ->
  Forall2 kid_eq (type_copies c p ty ka ko ha ki kp fmt o) (type_copies c p ty ka' ko' ha ki' kp' fmt o).
Proof.
  intros c p ty ka ka' ko ko' ha ki ki' kp kp' fmt o Ha Ho Hi Hp. destruct ty as [|t|l]; try constructor.
  cbn [type_copies]. induction l as [|t l IH]; cbn [map]; constructor; [|exact IH].
  intro n. apply dispatch_ext; try assumption. constructor.
Qed.

Lemma pfd_ext : forall c p ty en ka ka' ko ko' ha ki ki' kp kp' fmt d o name,
  Forall2 kid_eq ka ka' -> Forall2 kid_eq ko ko' -> oakid_eq ki ki' -> Forall2 akid_eq kp kp' ->
  pfd c p ty en ka ko ha ki kp fmt d o name = pfd c p ty en ka' ko' ha ki' kp' fmt d o name.
Proof.
  intros c p ty en ka ka' ko ko' ha ki ki' kp kp' fmt d o name Ha Ho Hi Hp. unfold pfd.
  assert (EB : enum_branch c p ty en ka ko ha ki kp fmt d o name = enum_branch c p ty en ka' ko' ha ki' kp' fmt d o name).
  { unfold enum_branch. destruct (enum_build en); try reflexivity.
    apply union_build_ext. apply Forall2_app; [assumption|]. apply Forall2_app; [apply kids_refl|].
    apply type_copies_ext; try assumption. apply kids_refl. }
  rewrite EB.
  apply dispatch_ext; try assumption. apply type_copies_ext; assumption.
Qed.

Lemma node_plain_ext : forall c e p ty en any one all ka ka' ko ko' ki ki' kp kp' fmt d o name,
  Forall2 kid_eq ka ka' -> Forall2 kid_eq ko ko' -> oakid_eq ki ki' -> Forall2 akid_eq kp kp' ->
  node_plain c e p ty en any one all ka ko ki kp fmt d o name = node_plain c e p ty en any one all ka' ko' ki' kp' fmt d o name.
Proof.
  intros. unfold node_plain.
  destruct (all ++ any ++ one) as [|[r|? ? ? ? ? ? ? ? ? ? ?] [|? ?]]; try reflexivity; apply pfd_ext; assumption.
Qed.

Lemma k_allof_spec : forall c e p all n, all <> [] ->
  k_allof c e p all n = build c e p (SSch TyAbsent false [] [] [] all None [] None None o_none) n.
Proof.
  intros c e p all n H. rewrite build_ssch. unfold k_allof, node_plain. cbn [app]. rewrite app_nil_r.
  destruct all as [|[r|? ? ? ? ? ? ? ? ? ? ?] [|? ?]]; try congruence; reflexivity.
Qed.

(* one more validator run on a built node = building the node validated once more: a tuple member is built like a top position *)
Lemma again_is_top : forall c e p s n, build_g c e p s true n = build c e p (hn_again s) n.
Proof.
  intros c e p s n. destruct s as [r|ty nl en any one all items pfx fmt d o]; [reflexivity|].
  cbn [hn_again build_g]. unfold hn, node. destruct nl; cbn [negb andb]; [|reflexivity].
  destruct ty as [|t|l]; try reflexivity.
  destruct one as [|o1 one']; [destruct any as [|a1 any']; [destruct all as [|l1 all']|]|].
  - reflexivity.
  - rewrite build_ssch. apply node_plain_ext; try apply kids_refl; try apply akids_refl; [|apply oakid_refl].
    cbn [map]. constructor; [intro; reflexivity|]. constructor; [|constructor].
    intro m. apply k_allof_spec. discriminate.
  - rewrite build_ssch. rewrite map_app. reflexivity.
  - rewrite build_ssch. rewrite map_app. reflexivity.
Qed.

Lemma equiv_kids : forall c e parent l l', Forall2 (equiv c e parent) l l' ->
  Forall2 kid_eq (map (build c e parent) (map pre l)) (map (build c e parent) (map pre l')).
Proof. intros c e parent l l' H. induction H; cbn [map]; constructor; [intro n; exact (H false n)|assumption]. Qed.

Lemma equiv_akids : forall c e parent l l', Forall2 (equiv c e parent) l l' ->
  Forall2 akid_eq (map (build_g c e parent) (map pre l)) (map (build_g c e parent) (map pre l')).
Proof.
  intros c e parent l l' H. induction H as [|a b l l' Hab _ IH]; cbn [map]; constructor; [|assumption].
  intros again n. destruct again.
  - rewrite !again_is_top. exact (Hab true n).
  - exact (Hab false n).
Qed.

(* handle_nullable changes the type and the member lists only *)
Lemma hn_shape : forall ty nl en any one all, exists ty2 any2 one2 all2,
  forall items pfx fmt d o, hn ty nl en any one all items pfx fmt d o = SSch ty2 nl en any2 one2 all2 items pfx fmt d o.
Proof.
  intros ty nl en any one all. destruct nl; [|do 4 eexists; intros; reflexivity].
  destruct ty as [|t|l]; [destruct one, any, all| |]; do 4 eexists; intros; reflexivity.
Qed.

Lemma pre_at_shape : forall top ty nl en any one all, exists ty2 any2 one2 all2,
  forall items pfx fmt d o,
    pre_at top (SSch ty nl en any one all items pfx fmt d o) = SSch ty2 nl en any2 one2 all2 (option_map pre items) (map pre pfx) fmt d o.
Proof.
  intros top ty nl en any one all.
  destruct (hn_shape ty nl en (map pre any) (map pre one) (map pre all)) as (ty2 & any2 & one2 & all2 & H1).
  destruct top.
  - destruct (hn_shape ty2 nl en any2 one2 all2) as (ty3 & any3 & one3 & all3 & H2).
    exists ty3, any3, one3, all3. intros. unfold pre_at. cbn [pre]. rewrite H1. cbn [hn_again]. apply H2.
  - exists ty2, any2, one2, all2. intros. unfold pre_at. cbn [pre]. apply H1.
Qed.

(* tuple arrays (and every other use of items): prefixItems members and items may each be written in any equivalent notation,
   independently of one another; equal members are kept, never merged *)
Theorem items_congruence : forall c e parent top ty nl en any one all items items' pfx pfx' fmt d o name,
  Forall2 (equiv c e parent) pfx pfx' -> oequiv c e parent items items' ->
  norm c e parent top (SSch ty nl en any one all items pfx fmt d o) name
  = norm c e parent top (SSch ty nl en any one all items' pfx' fmt d o) name.
Proof.
  intros c e parent top ty nl en any one all items items' pfx pfx' fmt d o name Hp Hi.
  unfold norm. destruct (pre_at_shape top ty nl en any one all) as (ty2 & any2 & one2 & all2 & H). rewrite !H.
  rewrite !build_ssch.
  apply node_plain_ext; try apply kids_refl; [|apply equiv_akids; assumption].
  destruct items as [a|], items' as [b|]; cbn in Hi |- *; try contradiction; [|exact I].
  intros again n. destruct again; [rewrite !again_is_top; exact (Hi true n)|exact (Hi false n)].
Qed.

Lemma forall2_len : forall (A B : Type) (R : A -> B -> Prop) l l', Forall2 R l l' -> length l = length l'.
Proof. intros A B R l l' H. induction H; cbn; congruence. Qed.

(* union members: each may be written in any equivalent notation as long as the composition is not a single-reference wrapper
   (that test is syntactic, see wrapper_not_congruent_refuted). Stated without the flag, nested: norm_explicit leads back to it. *)
Theorem union_members_congruence : forall c e parent ty en any any' one one' all items pfx fmt d o name,
  Forall2 (equiv c e parent) any any' -> Forall2 (equiv c e parent) one one' ->
  length (all ++ any ++ one) <> 1%nat ->
  norm c e parent false (SSch ty false en any one all items pfx fmt d o) name
  = norm c e parent false (SSch ty false en any' one' all items pfx fmt d o) name.
Proof.
  intros c e parent ty en any any' one one' all items pfx fmt d o name Ha Ho L.
  assert (L' : length (all ++ any' ++ one') <> 1%nat).
  { rewrite !app_length in *. rewrite <- (forall2_len _ _ _ _ _ Ha), <- (forall2_len _ _ _ _ _ Ho). exact L. }
  unfold norm, pre_at. cbn [pre hn negb]. rewrite !build_ssch. unfold node_plain.
  rewrite !not_single_ref
    by (intros r E; apply (f_equal (@length _)) in E; rewrite !app_length, !map_length in E; rewrite !app_length in L, L';
        first [exact (L E) | exact (L' E)]).
  apply pfd_ext; try apply akids_refl; try (apply equiv_kids; assumption). apply oakid_refl.
Qed.

(* non-vacuity + the tuple-array shape: prefixItems [T] with items written as nullable / type list, and a duplicate member kept *)
Example tuple_array_example :
  let P := SSch (TyList [JString; JTNull]) false [] [] [] [] None [] (Some s_date) None o_none in
  let I := SSch (TyOne JString) true [] [] [] [] None [] (Some s_date) None o_none in
  let arr i := SSch (TyOne JArray) false [] [] [] [] (Some i) [P] None None o_none in
  norm cfg0 (envl []) [72] false (arr P) [112] = norm cfg0 (envl []) [72] false (arr I) [112] /\
  norm cfg0 (envl []) [72] false (arr P) [112]
  = TList [112] (TUnion (item_name [112])
      [TLeaf LDate (sub_name (sub_name (item_name [112]) 0) 0) None; TLeaf LNone (sub_name (sub_name (item_name [112]) 0) 1) None;
       TLeaf LDate (sub_name (sub_name (item_name [112]) 1) 0) None; TLeaf LNone (sub_name (sub_name (item_name [112]) 1) 1) None] None).
Proof. split; vm_compute; reflexivity. Qed.

(* a tuple member is validated once more than a nested schema: a nullable union member gets a second null there *)
Example tuple_member_revalidated :
  norm cfg0 (envl []) [72] false
    (SSch (TyOne JArray) false [] [] [] [] (Some s_str) [SSch TyAbsent true [] [] [s_str] [] None [] None None o_none] None None o_none) [112]
  = TList [112] (TUnion (item_name [112])
      [TLeaf LStr (sub_name (sub_name (item_name [112]) 0) 0) None; TLeaf LNone (sub_name (sub_name (item_name [112]) 0) 1) None;
       TLeaf LNone (sub_name (sub_name (item_name [112]) 0) 2) None; TLeaf LStr (sub_name (item_name [112]) 1) None] None).
Proof. vm_compute. reflexivity. Qed.
