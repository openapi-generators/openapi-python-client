(* RefsThm.v - proofs about Refs.v (property C20): reference strings, request-body chains, component parameters, responses.
   A comment `R name:` gives the entry of known_findings.json that the refutation below it exhibits. *)
From Coq Require Import NArith List Bool Lia.
Import ListNotations.
Require Import OPC.gen.GenParams OPC.Uni OPC.NamesThm OPC.Refs.
Open Scope N_scope.

Lemma gen_params_facts :
  gen_params_known = true /\
  subsetN gen_param_reads gen_param_copied = true /\
  subsetN gen_param_reads model_reads = true /\
  subsetN model_reads gen_param_reads = true /\
  subsetN model_reads gen_param_copied = true.
Proof. vm_compute. repeat split; reflexivity. Qed.

Lemma gen_ref_evolved_ok : forallb (fun f => mem_str f ref_may_change) gen_ref_evolved = true.
Proof. vm_compute. reflexivity. Qed.

Definition plain_char (c : N) : bool := negb (memN c gen_url_remove).
Lemma param_prefix_hash : gen_param_ref_prefix = 35 :: tl gen_param_ref_prefix.
Proof. vm_compute. reflexivity. Qed.
Lemma param_prefix_plain : forallb plain_char (tl gen_param_ref_prefix) = true.
Proof. vm_compute. reflexivity. Qed.
Lemma response_prefix_slash : gen_response_prefix = removelast gen_response_prefix ++ [47].
Proof. vm_compute. reflexivity. Qed.
Lemma response_prefix_plain : forallb plain_char gen_response_prefix = true.
Proof. vm_compute. reflexivity. Qed.
Lemma hash_not_stripped : memN 35 gen_url_strip = false.
Proof. vm_compute. reflexivity. Qed.
Lemma hash_not_removed : memN 35 gen_url_remove = false.
Proof. vm_compute. reflexivity. Qed.
Lemma uses_params_empty : gen_uses_params_empty = true.
Proof. vm_compute. reflexivity. Qed.

Lemma memN_app c a b : memN c (a ++ b) = memN c a || memN c b.
Proof. unfold memN. apply existsb_app. Qed.

Lemma assoc_In {V} k (l : list (str * V)) v : assoc k l = Some v -> In (k, v) l.
Proof.
  induction l as [|[k' v'] l IH]; cbn [assoc]; [discriminate|].
  destruct (str_eqb k k') eqn:E.
  - intros [= <-]. apply str_eqb_eq in E. subst. now left.
  - intro H. right. auto.
Qed.

Lemma filter_id {A} (f : A -> bool) l : forallb f l = true -> filter f l = l.
Proof.
  induction l as [|x l IH]; cbn [forallb filter]; [reflexivity|].
  intro H. apply andb_true_iff in H as [H1 H2]. rewrite H1. now rewrite IH.
Qed.

Lemma is_prefix_split p : forall s, is_prefix p s = true -> s = p ++ skipn (length p) s.
Proof.
  induction p as [|c p IH]; intros s H; [reflexivity|]. destruct s as [|x s]; [discriminate|].
  cbn [is_prefix] in H. apply andb_true_iff in H as [Hc H]. apply N.eqb_eq in Hc. subst x.
  cbn [length skipn app]. f_equal. now apply IH.
Qed.

Lemma name_plain_chars n : name_plain n = forallb plain_char n.
Proof.
  unfold name_plain, plain_char. induction n as [|c n IH]; [reflexivity|].
  cbn [existsb forallb]. now rewrite negb_orb, IH.
Qed.

Lemma after_last_none c s : memN c s = false -> after_last c s = s.
Proof.
  destruct s as [|x r]; [reflexivity|]. cbn [after_last]. intro H.
  unfold memN in H. cbn [existsb] in H. apply orb_false_iff in H as [H1 H2].
  fold (memN c r) in H2. rewrite H2. rewrite N.eqb_sym in H1. now rewrite H1.
Qed.

Lemma after_last_app c p n : memN c n = false -> after_last c (p ++ c :: n) = n.
Proof.
  intro Hn. induction p as [|x p IH]; cbn [app after_last].
  - rewrite Hn. now rewrite N.eqb_refl.
  - rewrite memN_app. unfold memN at 2. cbn [existsb]. rewrite N.eqb_refl. rewrite orb_true_r. cbn [orb]. exact IH.
Qed.

Lemma after_last_no_sep c s : memN c (after_last c s) = false.
Proof.
  induction s as [|x r IH]; [reflexivity|]. cbn [after_last].
  destruct (memN c r) eqn:E; [exact IH|].
  destruct (x =? c) eqn:Ex; [exact E|].
  unfold memN. cbn [existsb]. rewrite N.eqb_sym, Ex. exact E.
Qed.

Theorem simple_name_last_segment : forall p n, memN 47 n = false -> get_reference_simple_name (p ++ 47 :: n) = n.
Proof. intros. now apply after_last_app. Qed.

Theorem simple_name_no_slash : forall s, memN 47 (get_reference_simple_name s) = false.
Proof. intro. apply after_last_no_sep. Qed.

(* simple_name_last_segment for a prefix written as q ++ "/", as the component prefixes are *)
Lemma simple_name_after q n : memN 47 n = false -> get_reference_simple_name ((q ++ [47]) ++ n) = n.
Proof. intro H. rewrite <- app_assoc. now apply simple_name_last_segment. Qed.

Lemma lstrip_set_head set c r : memN c set = false -> lstrip_set set (c :: r) = c :: r.
Proof. intro H. cbn [lstrip_set]. now rewrite H. Qed.

Lemma split_at_head c r : split_at c (c :: r) = ([], Some r).
Proof. cbn [split_at]. now rewrite N.eqb_refl. Qed.

Lemma split_scheme_hash r : split_scheme (35 :: r) = (false, 35 :: r).
Proof.
  unfold split_scheme. destruct (split_at 58 (35 :: r)) as [pre o] eqn:E.
  cbn [split_at] in E. change (35 =? 58) with false in E. cbv iota in E.
  destruct (split_at 58 r) as [a b]. injection E as <- <-.
  destruct b; reflexivity.
Qed.

Lemma url_clean_hash r : url_clean (35 :: r) = 35 :: filter plain_char r.
Proof.
  unfold url_clean. rewrite lstrip_set_head by exact hash_not_stripped. cbn [filter]. now rewrite hash_not_removed.
Qed.

Lemma parse_of_clean_hash raw r : url_clean raw = 35 :: r -> parse_reference_path raw = PROk r.
Proof.
  intro H. unfold parse_reference_path. rewrite H. rewrite split_scheme_hash.
  cbn [span_netloc memN existsb xorb orb]. rewrite split_at_head.
  cbn [split_at]. now rewrite uses_params_empty.
Qed.

(* '#' + fragment is accepted and yields the fragment (tab / CR / LF removed, as urlsplit does) *)
Theorem parse_ref_local : forall frag, parse_reference_path (35 :: frag) = PROk (filter plain_char frag).
Proof. intro. apply parse_of_clean_hash. apply url_clean_hash. Qed.

Corollary parse_ref_local_plain : forall frag, forallb plain_char frag = true -> parse_reference_path (35 :: frag) = PROk frag.
Proof. intros frag H. rewrite parse_ref_local. now rewrite filter_id. Qed.

(* an accepted reference without authority / query / params is '#' + fragment (or the empty string) *)
Lemma parse_ok_shape raw frag :
  g_no_authority raw = true -> parse_reference_path raw = PROk frag ->
  url_clean raw = 35 :: frag \/ (url_clean raw = [] /\ frag = []).
Proof.
  unfold g_no_authority. destruct (url_clean raw) as [|c r] eqn:E; intros Hg Hp.
  - right. split; [reflexivity|]. unfold parse_reference_path in Hp. rewrite E in Hp. now injection Hp as <-.
  - apply N.eqb_eq in Hg. subst c. left. rewrite (parse_of_clean_hash raw r E) in Hp. now injection Hp as <-.
Qed.

(* R ref_netloc_ignored: a network-path reference (remote host) is accepted, the authority part is dropped *)
Definition w_netloc_ref : str := [47;47;104;111;115;116;35;47;99;111;109;112;111;110;101;110;116;115;47;112;97;114;97;109;101;116;101;114;115;47;81].
Theorem ref_netloc_ignored_refuted :
  exists raw frag, g_no_authority raw = false /\ parse_reference_path raw = PROk frag /\ parse_reference_path (35 :: frag) = PROk frag.
Proof. exists w_netloc_ref. eexists. split; [vm_compute; reflexivity|]. split; vm_compute; reflexivity. Qed.

(* R ref_urlparse_crash: urlsplit raises ValueError on a one-sided bracket in the authority part; nothing catches it *)
Theorem ref_urlparse_crash_refuted : exists raw, parse_reference_path raw = PRCrash.
Proof. exists [47;47;91]. vm_compute. reflexivity. Qed.

Example parse_ref_remote_examples :
  parse_reference_path [111;46;121;97;109;108;35;47;65] = PRRemote /\     (* o.yaml#/A *)
  parse_reference_path [104;116;116;112;58;47;47;120;47;121;35;47;97] = PRRemote /\   (* http://x/y#/a *)
  parse_reference_path [65] = PRRemote /\ parse_reference_path [] = PROk [] /\ parse_reference_path [35] = PROk [].
Proof. vm_compute. repeat split; reflexivity. Qed.

Lemma body_prefix_slash : body_ref_prefix = removelast body_ref_prefix ++ [47].
Proof. reflexivity. Qed.

(* for the well-formed local form the component looked up is the one the reference names *)
Theorem body_ref_local_lookup : forall r, g_body_ref_local r = true ->
  r = body_ref_prefix ++ get_reference_simple_name r.
Proof.
  intros r H. unfold g_body_ref_local in H. apply andb_true_iff in H as [Hp Hs]. apply negb_true_iff in Hs.
  pose proof (is_prefix_split _ _ Hp) as E. set (n := skipn (length body_ref_prefix) r) in *.
  assert (Ha : get_reference_simple_name r = n) by (rewrite E, body_prefix_slash; now apply simple_name_after).
  now rewrite Ha.
Qed.

Section Body.
  Context {B : Type}.
  Implicit Types comps : list (str * body_entry B).

  (* r -> rs[0] -> rs[1] -> ... -> final : every element names (by its LAST segment) a component that holds the next one *)
  Fixpoint links comps (r : str) (rs : list str) (final : option (body_entry B)) : Prop :=
    match rs with
    | [] => assoc (get_reference_simple_name r) comps = final
    | r' :: rest => assoc (get_reference_simple_name r) comps = Some (BRef r') /\ links comps r' rest final
    end.

  Lemma body_loop_ref comps fuel seen r : ~ In r seen ->
    body_loop fuel comps seen (Some (BRef r)) =
    match fuel with O => BRFuel | S f => body_loop f comps (r :: seen) (assoc (get_reference_simple_name r) comps) end.
  Proof. intro H. apply mem_str_false in H. destruct fuel; cbn [body_loop]; now rewrite H. Qed.

  (* the loop walks an acyclic chain to its end, unless the fuel runs out; body_ref_terminates excludes the latter *)
  Lemma body_loop_chain comps : forall rs r seen fuel final,
    NoDup (r :: rs) -> (forall x, In x (r :: rs) -> ~ In x seen) -> links comps r rs final ->
    body_loop fuel comps seen (Some (BRef r)) = BRFuel \/
    exists f', body_loop fuel comps seen (Some (BRef r)) = body_loop f' comps (rev (r :: rs) ++ seen) final.
  Proof.
    induction rs as [|r' rest IH]; intros r seen fuel final Hnd Hdis Hl.
    all: rewrite body_loop_ref by (apply Hdis; now left).
    all: destruct fuel as [|f]; [now left|]; cbn [links] in Hl.
    - right. exists f. now rewrite Hl.
    - destruct Hl as [Hl1 Hl2]. rewrite Hl1. apply NoDup_cons_iff in Hnd as [Hni Hnd].
      destruct (IH r' (r :: seen) f final Hnd) as [Hf | [f' Hf']]; [|exact Hl2|now left|].
      + intros x Hx [<-|Hxs]; [exact (Hni Hx)|]. apply (Hdis x); [now right | exact Hxs].
      + right. exists f'. rewrite Hf'. f_equal.
        change (rev (r :: r' :: rest)) with (rev (r' :: rest) ++ [r]). now rewrite <- app_assoc.
  Qed.

  Fixpoint refs_of comps : list str :=
    match comps with [] => [] | (_, BRef r) :: l => r :: refs_of l | (_, BBody _) :: l => refs_of l end.
  Lemma refs_of_length comps : (length (refs_of comps) <= length comps)%nat.
  Proof. induction comps as [|[k [r|b]] l IH]; cbn [refs_of length]; lia. Qed.
  Lemma refs_of_In comps k r : In (k, BRef r) comps -> In r (refs_of comps).
  Proof.
    induction comps as [|[k' [r'|b]] l IH]; cbn [refs_of]; intro H; [contradiction| |].
    - destruct H as [H|H]; [injection H as _ <-; now left | right; auto].
    - destruct H as [H|H]; [discriminate | auto].
  Qed.

  (* seen holds distinct references out of a finite stock U and grows at every turn: fuel for |U| turns is enough *)
  Lemma body_loop_fuel comps U : (forall k r, In (k, BRef r) comps -> In r U) ->
    forall fuel seen cur,
    NoDup seen -> incl seen U -> (forall r, cur = Some (BRef r) -> In r U) ->
    (length U <= fuel + length seen)%nat ->
    body_loop fuel comps seen cur <> BRFuel.
  Proof.
    intros HU. induction fuel as [|f IH]; intros seen cur Hnd Hinc Hcur Hlen.
    all: destruct cur as [[r|b]|]; cbn [body_loop]; [|discriminate|destruct seen; discriminate].
    all: destruct (mem_str r seen) eqn:Em; [discriminate|]; apply mem_str_false in Em.
    all: assert (Hnd' : NoDup (r :: seen)) by now constructor.
    all: assert (Hinc' : incl (r :: seen) U) by (intros x [<-|Hx]; [now apply Hcur | now apply Hinc]).
    all: pose proof (NoDup_incl_length Hnd' Hinc') as Hl; cbn [length] in Hl.
    - lia.
    - apply IH; [exact Hnd'|exact Hinc'| |cbn [length]; lia].
      intros r' Hr'. apply assoc_In in Hr'. now apply HU in Hr'.
  Qed.

  (* the loop stops within |components|+1 steps, whatever the table and the start *)
  Theorem body_ref_terminates : forall comps start, resolve_body comps start <> BRFuel.
  Proof.
    intros comps start. unfold resolve_body.
    set (U := match start with Some (BRef r) => r :: refs_of comps | _ => refs_of comps end).
    apply (body_loop_fuel comps U).
    - intros k r H. apply refs_of_In in H. unfold U. destruct start as [[?|?]|]; [now right | exact H | exact H].
    - constructor.
    - intros x [].
    - intros r ->. unfold U. now left.
    - pose proof (refs_of_length comps). unfold U. destruct start as [[?|?]|]; cbn [length]; lia.
  Qed.

  Lemma chain_run comps r rs final :
    NoDup (r :: rs) -> links comps r rs final ->
    exists f', resolve_body comps (Some (BRef r)) = body_loop f' comps (rev (r :: rs)) final.
  Proof.
    intros Hnd Hl.
    destruct (body_loop_chain comps rs r [] (S (length comps)) final Hnd (fun _ _ H => H) Hl) as [Hf | [f' Hf']].
    - exfalso. exact (body_ref_terminates comps (Some (BRef r)) Hf).
    - exists f'. unfold resolve_body. rewrite Hf'. now rewrite app_nil_r.
  Qed.

  (* an acyclic chain of references of ANY length resolves to its terminal body *)
  Theorem body_ref_chain : forall comps r rs b,
    NoDup (r :: rs) -> links comps r rs (Some (BBody b)) -> resolve_body comps (Some (BRef r)) = BROk b.
  Proof. intros comps r rs b Hnd Hl. destruct (chain_run comps r rs _ Hnd Hl) as [f' ->]. destruct f'; reflexivity. Qed.

  Corollary body_ref_inline : forall comps r rs b,
    NoDup (r :: rs) -> links comps r rs (Some (BBody b)) ->
    resolve_body comps (Some (BRef r)) = resolve_body comps (Some (BBody b)).
  Proof. intros. erewrite body_ref_chain by eassumption. reflexivity. Qed.

  (* a chain that ends in a name without component is the error value, naming the last reference *)
  Theorem body_ref_missing : forall comps r rs,
    NoDup (r :: rs) -> links comps r rs None -> resolve_body comps (Some (BRef r)) = BRMissing (last (r :: rs) r).
  Proof.
    intros comps r rs Hnd Hl. destruct (chain_run comps r rs _ Hnd Hl) as [f' ->].
    assert (Hrev : exists tl, rev (r :: rs) = last (r :: rs) r :: tl).
    { destruct (@exists_last _ (r :: rs)) as (l' & a & E); [discriminate|].
      rewrite E. rewrite last_last. rewrite rev_app_distr. cbn [rev app]. eauto. }
    destruct Hrev as [tl ->]. destruct f'; reflexivity.
  Qed.

  (* a chain that comes back to one of its own references is the error value *)
  Theorem body_ref_cycle : forall comps r rs r',
    NoDup (r :: rs) -> In r' (r :: rs) -> links comps r rs (Some (BRef r')) ->
    resolve_body comps (Some (BRef r)) = BRCircular r'.
  Proof.
    intros comps r rs r' Hnd Hin Hl. destruct (chain_run comps r rs _ Hnd Hl) as [f' ->].
    assert (Hm : mem_str r' (rev (r :: rs)) = true) by (apply mem_str_In; now apply in_rev in Hin).
    destruct f'; cbn [body_loop]; now rewrite Hm.
  Qed.

  Theorem body_ref_total : forall comps start,
    match resolve_body comps start with BRFuel => False | _ => True end.
  Proof. intros comps start. pose proof (body_ref_terminates comps start). destruct (resolve_body comps start); auto. Qed.
End Body.

(* R body_ref_prefix_ignored: only the last segment is used, so a remote-looking / wrong-section reference whose last
   segment names a local request body resolves silently *)
Definition w_remote_body_ref : str := [104;116;116;112;58;47;47;101;118;105;108;47;120;35;47;66].   (* http://evil/x#/B *)
Definition w_schema_body_ref : str := [35;47;99;111;109;112;111;110;101;110;116;115;47;115;99;104;101;109;97;115;47;66]. (* #/components/schemas/B *)
Theorem body_ref_prefix_ignored_refuted :
  exists (comps : list (str * body_entry N)) r1 r2 b,
    parse_reference_path r1 = PRRemote /\ g_body_ref_local r1 = false /\ resolve_body comps (Some (BRef r1)) = BROk b /\
    g_body_ref_local r2 = false /\ resolve_body comps (Some (BRef r2)) = BROk b.
Proof.
  exists [([66], BBody 7)], w_remote_body_ref, w_schema_body_ref, 7.
  vm_compute. repeat split; reflexivity.
Qed.

Example body_guard_satisfiable :
  g_body_ref_local (body_ref_prefix ++ [66]) = true /\
  resolve_body [([66], BRef (body_ref_prefix ++ [67])); ([67], BBody 9)] (Some (BRef (body_ref_prefix ++ [66]))) = BROk 9.
Proof. vm_compute. split; reflexivity. Qed.

Lemma assocN_map_self (g : N -> pval) f l : memN f l = true -> assocN f (map (fun x => (x, g x)) l) = Some (g f).
Proof.
  induction l as [|x l IH]; [discriminate|]. unfold memN. cbn [existsb map assocN].
  destruct (N.eqb_spec f x) as [->|Hne]; [reflexivity|]. cbn [orb]. exact IH.
Qed.

(* the copy registered for references agrees with the component on every copied field *)
Theorem copy_reads : forall p f, memN f gen_param_copied = true -> pget (copy_param p) f = pget p f.
Proof. intros p f H. unfold pget at 1, copy_param. now rewrite assocN_map_self. Qed.

Lemma tbl_add_assoc k v t k' :
  assoc k' (tbl_add k v t) = match assoc k' t with Some x => Some x | None => if str_eqb k' k then Some v else None end.
Proof.
  unfold tbl_add. destruct (assoc k t) eqn:E.
  - destruct (assoc k' t) eqn:E'; [reflexivity|]. destruct (str_eqb k' k) eqn:Ek; [|reflexivity].
    apply str_eqb_eq in Ek. subst. congruence.
  - cbn [assoc]. destruct (str_eqb k' k) eqn:Ek.
    + apply str_eqb_eq in Ek. subst. now rewrite E.
    + destruct (assoc k' t); reflexivity.
Qed.

Lemma build_loop_table comps : forall t re pe frag,
  assoc frag (fst (build_parameters_loop comps t re pe)) =
  match assoc frag t with Some x => Some x | None => option_map copy_param (raw_lookup comps frag) end.
Proof.
  induction comps as [|[name d] rest IH]; intros t re pe frag; cbn [build_parameters_loop raw_lookup].
  - cbn [fst]. destruct (assoc frag t); reflexivity.
  - destruct d as [r|p].
    + apply IH.
    + destruct (ref_path_of_name name) as [rp| | |]; try apply IH.
      cbn [parameter_from_data].
      destruct (pget p gf_param_schema) eqn:Es; [apply IH | ..].    (* PVnone: no schema, the component is skipped *)
      all: rewrite IH, tbl_add_assoc; destruct (assoc frag t); [reflexivity|]; now destruct (str_eqb frag rp).
Qed.

(* what a reference path finds in the table is the field-by-field copy of the component it denotes *)
Theorem table_is_copy : forall comps frag,
  assoc frag (fst (build_parameters comps)) = option_map copy_param (raw_lookup comps frag).
Proof. intros. unfold build_parameters. now rewrite build_loop_table. Qed.

Section AddThm.
  Variables St P : Type.
  Variable build : St -> str -> bool -> N -> option (P * St).
  Variable validate : P -> loc -> bool.
  Variable finish : eparams P -> eparams P + perr.
  Variable middle : St -> option St.

  Lemma add_loop_reads t p p' rest uniq e st : (forall f, In f model_reads -> pget p' f = pget p f) ->
    add_loop St P build validate t (PIParam p' :: rest) uniq e st =
    add_loop St P build validate t (PIParam p :: rest) uniq e st.
  Proof.
    intro H. cbn [add_loop parameter_from_reference]. unfold p_schema, p_name, p_loc, p_required.
    rewrite !H by (cbn; auto). reflexivity.
  Qed.

  Lemma add_loop_copy t p rest uniq e st :
    add_loop St P build validate t (PIParam (copy_param p) :: rest) uniq e st =
    add_loop St P build validate t (PIParam p :: rest) uniq e st.
  Proof.
    apply add_loop_reads. intros f Hf. apply copy_reads.
    destruct gen_params_facts as (_ & _ & _ & _ & Hs). unfold subsetN in Hs. rewrite forallb_forall in Hs. now apply Hs.
  Qed.

  (* for ALL component tables and ALL parameter lists in which any subset of the items is given by
     reference, processing the list equals processing the list with every reference replaced by the component as written:
     same (name, location, required, schema) sequence, same error, same resulting state *)
  Theorem param_ref_inline : forall comps its its',
    inline_items comps its = Some its' ->
    forall uniq e st,
    add_loop St P build validate (fst (build_parameters comps)) its uniq e st =
    add_loop St P build validate (fst (build_parameters comps)) its' uniq e st.
  Proof.
    intros comps. set (t := fst (build_parameters comps)).
    induction its as [|it rest IH]; intros its' Hi uniq e st.
    - injection Hi as <-. reflexivity.
    - cbn [inline_items] in Hi.
      destruct (inline_item comps it) as [a|] eqn:Ea; [|discriminate].
      destruct (inline_items comps rest) as [b|] eqn:Eb; [|discriminate]. injection Hi as <-.
      specialize (IH b eq_refl).
      assert (Hhead : forall rest0, add_loop St P build validate t (it :: rest0) uniq e st = add_loop St P build validate t (a :: rest0) uniq e st).
      { intro rest0. destruct it as [r|p]; cbn [inline_item] in Ea.
        - destruct (parse_reference_path r) as [frag| | |] eqn:Ep; try discriminate.
          destruct (raw_lookup comps frag) as [p|] eqn:Er; [|discriminate]. injection Ea as <-.
          rewrite <- add_loop_copy.
          cbn [add_loop parameter_from_reference]. rewrite Ep. unfold t. rewrite table_is_copy, Er. reflexivity.
        - injection Ea as <-. reflexivity. }
      rewrite Hhead.
      (* the tail: same continuation on both sides *)
      cbn [add_loop]. destruct (parameter_from_reference t a) as [p|err]; [|reflexivity].
      destruct (p_schema p) as [sch|]; [|apply IH].
      destruct (key_in (p_name p) (p_loc p) uniq); [reflexivity|].
      destruct (present P (p_name p) (p_loc p) e); [apply IH|].
      destruct (build st (p_name p) (p_required p) sch) as [[prop st']|]; [|reflexivity].
      destruct (validate prop (p_loc p)); [apply IH | reflexivity].
  Qed.

  Corollary add_parameters_ref_inline : forall comps its its' e st,
    inline_items comps its = Some its' ->
    add_parameters St P build validate finish (fst (build_parameters comps)) (Some its) e st =
    add_parameters St P build validate finish (fst (build_parameters comps)) (Some its') e st.
  Proof. intros. unfold add_parameters. now rewrite (param_ref_inline comps its its'). Qed.

  (* operation-level list first, then the path-item list, references resolved before the
     (name, location) de-duplication in both: the whole endpoint sees references and inline copies alike *)
  Theorem param_ref_inline_endpoint : forall comps ops ops' pis pis' st,
    inline_items comps ops = Some ops' -> inline_items comps pis = Some pis' ->
    endpoint_parameters St P build validate finish middle (fst (build_parameters comps)) (Some ops) (Some pis) st =
    endpoint_parameters St P build validate finish middle (fst (build_parameters comps)) (Some ops') (Some pis') st.
  Proof.
    intros comps ops ops' pis pis' st H1 H2. unfold endpoint_parameters.
    rewrite (add_parameters_ref_inline comps ops ops' [] st H1).
    destruct (add_parameters St P build validate finish (fst (build_parameters comps)) (Some ops') [] st) as [[e|err] st1]; [|reflexivity].
    destruct (middle st1) as [st2|]; [|reflexivity].
    now apply add_parameters_ref_inline.
  Qed.

  (* a path-item parameter whose (name, location) the operation already declared is ignored,
     by reference or inline alike (the `present` test runs on the resolved parameter) *)
  Theorem path_item_never_overrides : forall t it p sch rest uniq e st,
    parameter_from_reference t it = inl p -> p_schema p = Some sch ->
    key_in (p_name p) (p_loc p) uniq = false -> present P (p_name p) (p_loc p) e = true ->
    add_loop St P build validate t (it :: rest) uniq e st =
    add_loop St P build validate t rest ((p_name p, p_loc p) :: uniq) e st.
  Proof. intros t it p sch rest uniq e st H1 H2 H3 H4. cbn [add_loop]. now rewrite H1, H2, H3, H4. Qed.

  (* a reference that does not resolve is an error for this endpoint; the state handed on
     (Schemas) is the one reached before the item - nothing else is affected *)
  Theorem bad_param_ref_contained : forall t r rest uniq e st,
    (forall frag, parse_reference_path r = PROk frag -> assoc frag t = None) ->
    exists err, add_loop St P build validate t (PIRef r :: rest) uniq e st = (inr err, st).
  Proof.
    intros t r rest uniq e st H. cbn [add_loop parameter_from_reference].
    destruct (parse_reference_path r) as [frag| | |]; [rewrite (H frag eq_refl)| | |]; eauto.
  Qed.
End AddThm.

Lemma ref_path_of_plain name : name_plain name = true ->
  ref_path_of_name name = PROk (tl gen_param_ref_prefix ++ name).
Proof.
  intro Hn. unfold ref_path_of_name. rewrite param_prefix_hash. cbn [app tl]. apply parse_ref_local_plain.
  now rewrite forallb_app, param_prefix_plain, <- name_plain_chars.
Qed.

Lemma str_eqb_app_l q a b : str_eqb (q ++ a) (q ++ b) = str_eqb a b.
Proof. induction q as [|c q IH]; [reflexivity|]. cbn [app str_eqb]. now rewrite N.eqb_refl. Qed.

(* when the component keys are plain (no tab / CR / LF) the canonical reference to a component with a schema denotes exactly
   that component, so param_ref_inline applies to it *)
Theorem param_ref_canonical : forall comps n p,
  forallb name_plain (map fst comps) = true -> name_plain n = true ->
  assoc n comps = Some (CParam p) -> pget p gf_param_schema <> PVnone ->
  inline_item comps (PIRef (gen_param_ref_prefix ++ n)) = Some (PIParam p).
Proof.
  intros comps n p Hk Hn Ha Hs.
  pose proof (ref_path_of_plain n Hn) as Hq. unfold ref_path_of_name in Hq.
  cbn [inline_item]. rewrite Hq.
  assert (Hr : raw_lookup comps (tl gen_param_ref_prefix ++ n) = Some p).
  { clear Hq. induction comps as [|[k d] rest IH]; [discriminate|].
    cbn [map fst forallb] in Hk. apply andb_true_iff in Hk as [Hk1 Hk2].
    cbn [assoc] in Ha. cbn [raw_lookup]. rewrite (ref_path_of_plain k Hk1).
    destruct (str_eqb n k) eqn:Enk.
    - injection Ha as ->. apply str_eqb_eq in Enk. subst k.
      destruct (pget p gf_param_schema) eqn:Es; try congruence; now rewrite str_eqb_refl.
    - destruct d as [r|p']; [now apply IH|]. rewrite str_eqb_app_l, Enk.
      destruct (pget p' gf_param_schema); now apply IH. }
  now rewrite Hr.
Qed.

(* R param_ref_no_schema: a component parameter described by `content` (no schema) is skipped silently when written inline
   but makes the referencing endpoint fail ("Reference not found") *)
Definition w_noschema : param := [(gf_name, PVstr [113]); (gf_param_in, PVloc LQuery)].
Definition w_ref_Q : str := gen_param_ref_prefix ++ [81].
Definition u_build (st : unit) (n : str) (r : bool) (s : N) : option (N * unit) := Some (s, tt).
Theorem param_ref_no_schema_refuted :
  exists comps r p, assoc [81] comps = Some (CParam p) /\ r = gen_param_ref_prefix ++ [81] /\
    add_loop unit N u_build (fun _ _ => true) (fst (build_parameters comps)) [PIParam p] [] [] tt = (inl [], tt) /\
    add_loop unit N u_build (fun _ _ => true) (fst (build_parameters comps)) [PIRef r] [] [] tt = (inr ENotFound, tt).
Proof. exists [([81], CParam w_noschema)], w_ref_Q, w_noschema. vm_compute. repeat split; reflexivity. Qed.

(* R param_key_ctrl_collision: component keys that differ only by tab / CR / LF map to one reference path; the first wins *)
Theorem param_key_collision_refuted :
  exists comps p1 p2, assoc [97;98] comps = Some (CParam p2) /\ p1 <> p2 /\
    g_param_keys_plain comps = false /\
    inline_item comps (PIRef (gen_param_ref_prefix ++ [97;98])) = Some (PIParam p1).
Proof.
  exists [([97;9;98], CParam [(gf_name, PVstr [120]); (gf_param_schema, PVschema 1)]);
          ([97;98], CParam [(gf_name, PVstr [121]); (gf_param_schema, PVschema 1)])].
  eexists. eexists. split; [vm_compute; reflexivity|]. split; [|split; vm_compute; reflexivity]. discriminate.
Qed.

(* field 6 is one the model does not read *)
Example param_guard_satisfiable :
  let comps := [([81], CParam [(gf_name, PVstr [113]); (gf_param_in, PVloc LQuery); (gf_param_schema, PVschema 1); (6, PVother 5)]);
                ([82], CRef [35])] in
  g_param_keys_plain comps = true /\
  inline_items comps [PIRef (gen_param_ref_prefix ++ [81]); PIParam [(gf_name, PVstr [120]); (gf_param_in, PVloc LPath); (gf_required, PVbool true); (gf_param_schema, PVschema 2)]] <> None /\
  fst (add_loop unit N u_build (fun _ _ => true) (fst (build_parameters comps)) [PIRef (gen_param_ref_prefix ++ [81])] [] [] tt)
    = inl [{| pp_name := [113]; pp_loc := LQuery; pp_required := false; pp_schema := 1; pp_prop := 1 |}].
Proof. vm_compute. repeat split; try reflexivity. discriminate. Qed.

Section Resp.
  Context {R : Type}.
  Implicit Types comps : list (str * resp_entry R).

  (* '#/components/responses/' + name behaves as the response written inline *)
  Theorem response_ref : forall comps n x,
    name_plain n = true -> memN 47 n = false -> assoc n comps = Some (RResp x) ->
    resolve_response comps (RRefE (35 :: gen_response_prefix ++ n)) = resolve_response comps (RResp x).
  Proof.
    intros comps n x Hn Hs Ha.
    cbn [resolve_response].
    rewrite parse_ref_local_plain by (now rewrite forallb_app, response_prefix_plain, <- name_plain_chars).
    now rewrite is_prefix_app, response_prefix_slash, simple_name_after, Ha.
  Qed.

  (* under g_no_authority and g_single_segment, a reference that resolves IS of the canonical form
     and names an inline response component; so every other reference form gives an error value (hence the name) *)
  Theorem response_other_error : forall comps r x,
    g_no_authority r = true -> g_single_segment r = true ->
    resolve_response comps (RRefE r) = RROk x ->
    exists n, url_clean r = 35 :: gen_response_prefix ++ n /\ memN 47 n = false /\ assoc n comps = Some (RResp x).
  Proof.
    intros comps r x Hg Hs Hr. cbn [resolve_response] in Hr. unfold g_single_segment in Hs.
    destruct (parse_reference_path r) as [frag| | |] eqn:Ep; try discriminate.
    destruct (is_prefix gen_response_prefix frag) eqn:Epre; [|discriminate].
    cbn [implb] in Hs. apply negb_true_iff in Hs.
    pose proof (is_prefix_split _ _ Epre) as Efrag.
    set (n := skipn (length gen_response_prefix) frag) in *.
    exists n. split; [|split; [exact Hs|]].
    - destruct (parse_ok_shape r frag Hg Ep) as [H | [_ H]].
      + now rewrite H, Efrag at 1.
      + exfalso. rewrite H, response_prefix_slash in Epre. destruct (removelast gen_response_prefix); discriminate.
    - assert (En : get_reference_simple_name frag = n)
        by (rewrite Efrag, response_prefix_slash; now apply simple_name_after).
      rewrite En in Hr. destruct (assoc n comps) as [[r'|x']|]; try discriminate. now injection Hr as ->.
  Qed.

  Theorem response_ref_remote_error : forall comps r, parse_reference_path r = PRRemote -> resolve_response comps (RRefE r) = RRRemote.
  Proof. intros comps r H. cbn [resolve_response]. now rewrite H. Qed.
End Resp.

(* R response_ref_segments_ignored: extra segments between the prefix and the last segment are ignored *)
Definition w_resp_ref : str := [35] ++ gen_response_prefix ++ [120;47;82].     (* #/components/responses/x/R *)
Theorem response_ref_segments_refuted :
  exists (comps : list (str * resp_entry N)) r x, g_no_authority r = true /\ g_single_segment r = false /\ resolve_response comps (RRefE r) = RROk x.
Proof. exists [([82], RResp 5)], w_resp_ref, 5. vm_compute. repeat split; reflexivity. Qed.

(* the same authority defect seen from responses *)
Theorem response_ref_netloc_refuted :
  exists (comps : list (str * resp_entry N)) r x, g_no_authority r = false /\ resolve_response comps (RRefE r) = RROk x.
Proof. exists [([82], RResp 5)], ([47;47;104] ++ [35] ++ gen_response_prefix ++ [82]), 5. vm_compute. split; reflexivity. Qed.

Example response_guard_satisfiable :
  g_no_authority ([35] ++ gen_response_prefix ++ [82]) = true /\ g_single_segment ([35] ++ gen_response_prefix ++ [82]) = true /\
  resolve_response [([82], RResp 5)] (RRefE ([35] ++ gen_response_prefix ++ [82])) = RROk 5 /\
  resolve_response [([82], RResp 5)] (RRefE ([35;47;99;47;82] : str)) = RRNotAllowed /\
  resolve_response [([82], RRefE [35])] (RRefE ([35] ++ gen_response_prefix ++ [82])) = (RRTopRef : resp_result N).
Proof. vm_compute. repeat split; reflexivity. Qed.

(* a property reached through a reference differs from the referenced one at most in
   name / python_name / required / default; every other attribute (hence the codec, C02) is the referenced one's *)
Theorem ref_same_wire : forall (V : Type) (existing : prop_attrs V) upd k,
  mem_str k ref_may_change = false -> assoc k (evolve_ref existing upd) = assoc k existing.
Proof.
  intros V existing upd k Hk. unfold evolve_ref.
  induction existing as [|[k' v] rest IH]; [reflexivity|]. cbn [map fst assoc].
  destruct (mem_str k' gen_ref_evolved) eqn:Em; cbn [assoc fst].
  - destruct (str_eqb k k') eqn:Ek; [|exact IH].
    exfalso. apply str_eqb_eq in Ek. subst k'.
    pose proof gen_ref_evolved_ok as H. rewrite forallb_forall in H.
    apply mem_str_In in Em. apply H in Em. congruence.
  - destruct (str_eqb k k'); [reflexivity | exact IH].
Qed.

Theorem ref_shares_class : forall (V : Type) (existing : prop_attrs V) upd1 upd2 k,
  mem_str k ref_may_change = false -> assoc k (evolve_ref existing upd1) = assoc k (evolve_ref existing upd2).
Proof. intros. now rewrite !ref_same_wire. Qed.
