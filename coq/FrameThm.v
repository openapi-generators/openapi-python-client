(* FrameThm.v - proofs for Frame.v (property C16).  The facts about the regenerated tables are decided by evaluation; each option
   mechanism is characterised against the same mechanism with the option off or the override table empty. *)
From Coq Require Import NArith List Bool String Ascii Lia.
Import ListNotations.
Require Import OPC.gen.GenTables OPC.Uni OPC.Names OPC.NamesThm OPC.NamesFast OPC.Fs OPC.gen.GenFrame OPC.Frame.
Open Scope N_scope.

(* what the check of a read-site table against documented sites means *)
Lemma frame_sound : forall doc reads,
  forallb (reads_within doc) reads = true ->
  forall r, In r reads -> exists s, In s (doc (r_opt r)) /\ site_match s r = true.
Proof.
  intros doc reads H r Hr. apply existsb_exists. exact (proj1 (forallb_forall _ _) H r Hr).
Qed.

Lemma pat_match_spec p a : pat_match p a = true <-> p = star \/ p = a.
Proof.
  unfold pat_match. rewrite orb_true_iff, !str_eqb_eq. tauto.
Qed.

Lemma site_match_spec s r : site_match s r = true <->
  (s_file s = star \/ s_file s = r_file r) /\ (s_site s = star \/ s_site s = r_site r) /\
  (s_ctx s = star \/ s_ctx s = r_ctx r) /\ s_via s = r_via r.
Proof.
  unfold site_match. rewrite !andb_true_iff, !pat_match_spec, str_eqb_eq. tauto.
Qed.

Theorem frame : forallb (reads_within documented_sites) gen_option_reads = true.
Proof. vm_compute. reflexivity. Qed.

(* every syntactic read of an option lies in that option's documented site set (and no read is unclassified: the option `?`
   has no documented site) *)
Theorem frame_reads_documented : forall r, In r gen_option_reads ->
  exists s, In s (documented_sites (r_opt r)) /\
    (s_file s = star \/ s_file s = r_file r) /\ (s_site s = star \/ s_site s = r_site r) /\
    (s_ctx s = star \/ s_ctx s = r_ctx r) /\ s_via s = r_via r.
Proof.
  intros r Hr. destruct (frame_sound _ _ frame r Hr) as [s [Hs Hm]].
  exists s. split; [exact Hs|]. apply site_match_spec. exact Hm.
Qed.

Theorem unknown_has_no_site : documented_sites (s2l "?") = [].
Proof. vm_compute. reflexivity. Qed.

Theorem defaults_documented : defaults_ok = true.
Proof. vm_compute. reflexivity. Qed.
Theorem options_documented : options_documented_ok = true.
Proof. vm_compute. reflexivity. Qed.
Theorem merge_faithful : merge_ok = true.
Proof. vm_compute. reflexivity. Qed.
Theorem every_option_read : every_option_read_ok = true.
Proof. vm_compute. reflexivity. Qed.

Lemma merge_row_sound field kind src : In (field, kind, src) gen_merge ->
  src = field /\ (In field cli_params \/ In field (map fst gen_configfile_fields)).
Proof.
  intros H. pose proof merge_faithful as M. unfold merge_ok in M. apply andb_true_iff in M. destruct M as [M _].
  apply (proj1 (forallb_forall _ _)) with (x := (field, kind, src)) in M; [|exact H]. unfold merge_row_ok in M.
  apply andb_true_iff in M. destruct M as [M1 M2]. apply str_eqb_eq in M1. split; [symmetry; exact M1|].
  destruct (str_eqb kind (s2l "param")).
  - left. apply mem_str_In. exact M2.
  - right. apply andb_true_iff in M2. destruct M2 as [_ M2]. apply mem_str_In. exact M2.
Qed.

Lemma lookup_str_nil {A} k : @lookup_str A k [] = None.
Proof. reflexivity. Qed.

(* without overrides: the default Class *)
Lemma class_from_string_default s p :
  class_from_string s p [] = (class_name (ref_simple_name s) p, python_identifier (class_name (ref_simple_name s) p) p false).
Proof. reflexivity. Qed.

(* the overridden Class is a function of the DEFAULT class name alone: the override table is a relabelling of default names *)
Theorem override_is_renaming : forall s p ovs,
  class_from_string s p ovs = rename_class ovs p (fst (class_from_string s p [])).
Proof.
  intros s p ovs. unfold class_from_string, rename_class. cbn [lookup_str fst].
  destruct (lookup_str (class_name (ref_simple_name s) p) ovs) as [[oc om]|]; cbn [o_class o_module].
  - destruct oc; destruct om; reflexivity.
  - reflexivity.
Qed.

(* classes the table does not name are untouched *)
Theorem override_local : forall s p ovs,
  lookup_str (fst (class_from_string s p [])) ovs = None -> class_from_string s p ovs = class_from_string s p [].
Proof.
  intros s p ovs H. rewrite override_is_renaming. unfold rename_class. rewrite H.
  rewrite class_from_string_default. reflexivity.
Qed.

(* a named class gets exactly the requested names, passed through the same ClassName / PythonIdentifier normalisation *)
Theorem override_hit : forall s p ovs o,
  lookup_str (fst (class_from_string s p [])) ovs = Some o ->
  fst (class_from_string s p ovs) = match o_class o with Some c => class_name c p | None => fst (class_from_string s p []) end /\
  snd (class_from_string s p ovs) =
    python_identifier (match o_module o with Some m => m | None => fst (class_from_string s p ovs) end) p false.
Proof.
  intros s p ovs o H. rewrite override_is_renaming. unfold rename_class. rewrite H. cbn [fst snd]. split; reflexivity.
Qed.

(* two strings that mint the same default class get the same overridden class: no override can split a class *)
Corollary override_respects_default : forall s1 s2 p ovs,
  fst (class_from_string s1 p []) = fst (class_from_string s2 p []) -> class_from_string s1 p ovs = class_from_string s2 p ovs.
Proof. intros s1 s2 p ovs H. rewrite (override_is_renaming s1), (override_is_renaming s2), H. reflexivity. Qed.

Lemma nodup_str_NoDup l : nodup_str l = true -> NoDup l.
Proof.
  induction l as [|x l IH]; intros H; [constructor|].
  cbn [nodup_str] in H. apply andb_true_iff in H. destruct H as [H1 H2]. constructor; [|apply IH; exact H2].
  intros Hin. apply mem_str_In in Hin. rewrite Hin in H1. discriminate.
Qed.

(* under the (decidable) guard that the table is injective on the document's default names, it is a bijective relabelling:
   distinct classes keep distinct class names and distinct module names *)
Theorem override_injective : forall ovs p names n1 n2,
  rename_injective_on ovs p names = true -> In n1 names -> In n2 names ->
  (fst (rename_class ovs p n1) = fst (rename_class ovs p n2) \/ snd (rename_class ovs p n1) = snd (rename_class ovs p n2)) -> n1 = n2.
Proof.
  intros ovs p names n1 n2 H H1 H2 E. unfold rename_injective_on in H. apply andb_true_iff in H. destruct H as [Ha Hb].
  apply nodup_str_NoDup in Ha. apply nodup_str_NoDup in Hb. destruct E as [E|E].
  - exact (NoDup_map_inj _ _ Ha n1 n2 H1 H2 E).
  - exact (NoDup_map_inj _ _ Hb n1 n2 H1 H2 E).
Qed.

(* the guard is not vacuous, and it can fail: an override onto an existing class name merges two classes *)
Definition ov_example : overrides := [(s2l "Pet", {| o_class := Some (s2l "Animal"); o_module := Some (s2l "zoo") |})].
Example override_injective_example : rename_injective_on ov_example (s2l "field_") [s2l "Pet"; s2l "Owner"] = true
  /\ class_from_string (s2l "#/components/schemas/Pet") (s2l "field_") ov_example = (s2l "Animal", s2l "zoo").
Proof. vm_compute. split; reflexivity. Qed.
Theorem override_collision_refuted : exists ovs names, rename_injective_on ovs (s2l "field_") names = false.
Proof. exists [(s2l "Pet", {| o_class := Some (s2l "Owner"); o_module := None |})], [s2l "Pet"; s2l "Owner"]. vm_compute. reflexivity. Qed.

(* the module component of the guard: an override may send a class into the module file of another class (the writer does not
   check module names: known finding override_module_collision) *)
Theorem override_module_collision_refuted : exists ovs n1 n2,
  n1 <> n2 /\ fst (rename_class ovs (s2l "field_") n1) <> fst (rename_class ovs (s2l "field_") n2) /\
  snd (rename_class ovs (s2l "field_") n1) = snd (rename_class ovs (s2l "field_") n2) /\
  rename_injective_on ovs (s2l "field_") [n1; n2] = false.
Proof.
  exists [(s2l "Alpha", {| o_class := None; o_module := Some (s2l "beta") |})], (s2l "Alpha"), (s2l "Beta").
  vm_compute. repeat split; try reflexivity; discriminate.
Qed.

Theorem prefix_decompose : forall v p skip,
  python_identifier v p skip = if needs_prefix v skip then p ++ ident_core v skip else ident_core v skip.
Proof.
  intros v p skip. unfold python_identifier, needs_prefix, ident_core.
  destruct skip.
  - reflexivity.
  - unfold snake_case. rewrite sanitize_idem. reflexivity.
Qed.

(* the prefix has an effect exactly on the names that need one *)
Theorem prefix_only_prefixes : forall v skip p1 p2,
  (needs_prefix v skip = false -> python_identifier v p1 skip = python_identifier v p2 skip) /\
  (needs_prefix v skip = true -> (python_identifier v p1 skip = python_identifier v p2 skip <-> p1 = p2)) /\
  (needs_prefix v skip = true -> python_identifier v p1 skip = p1 ++ ident_core v skip).
Proof.
  intros v skip p1 p2. rewrite !prefix_decompose. destruct (needs_prefix v skip).
  - split; [discriminate|]. split; [|reflexivity]. intros _. split.
    + apply app_inv_tail.
    + intros ->. reflexivity.
  - split; [reflexivity|]. split; discriminate.
Qed.

(* when that is: the normalised name is empty, starts with a non-XID_Start character (e.g. a digit), contains a character that
   is not XID_Continue, or the original starts with an underscore *)
Theorem needs_prefix_spec : forall v skip,
  needs_prefix v skip = true <->
  ident_core v skip = [] \/
  (exists c r, ident_core v skip = c :: r /\ (xid_start c = false \/ forallb xid_continue r = false)) \/
  starts_us v = true.
Proof.
  intros v skip. unfold needs_prefix. rewrite orb_true_iff, negb_true_iff. unfold is_identifier.
  destruct (ident_core v skip) as [|c r].
  - split; [intros _; left; reflexivity|]. intros _. left. reflexivity.
  - rewrite andb_false_iff. split.
    + intros [H|H]; [right; left; exists c, r; split; [reflexivity|exact H]|right; right; exact H].
    + intros [H|[[c' [r' [E H]]]|H]]; [discriminate| |right; exact H].
      inversion E; subst. left. exact H.
Qed.

Theorem class_prefix_decompose : forall v p,
  class_name v p = if class_needs_prefix v then fix_reserved (pascal_case (sanitize (p ++ class_core v))) else class_core v.
Proof. intros v p. unfold class_name, class_needs_prefix, class_core. reflexivity. Qed.

Corollary class_prefix_only_prefixes : forall v p1 p2, class_needs_prefix v = false -> class_name v p1 = class_name v p2.
Proof. intros v p1 p2 H. rewrite !class_prefix_decompose, H. reflexivity. Qed.

Example needs_prefix_examples :
  needs_prefix (s2l "name") false = false /\ needs_prefix (s2l "1st") false = true /\ needs_prefix (s2l "_private") false = true /\
  needs_prefix (s2l "$$") false = true /\ python_identifier (s2l "1st") (s2l "attr_") false = s2l "attr_1st".
Proof.
  (* evaluated on the tree-backed twins of NamesFast: the linear Unicode tables are dear when the proof is checked again *)
  unfold needs_prefix, ident_core. rewrite <- !snake_case_f_eq, <- !sanitize_f_eq, <- python_identifier_f_eq.
  vm_compute. repeat split; reflexivity.
Qed.

Lemma op_tags_off_In t tags : In t (op_tags false tags) <-> hd_error (op_tags true tags) = Some t.
Proof.
  unfold op_tags. destruct (map _ _) as [|x l]; cbn; [split; [intros []|discriminate]|].
  split; [intros [->|[]]; reflexivity|intros [= ->]; now left].
Qed.

Section CollectThm.
  Variable E : Type.
  Implicit Types (c : colls E) (e : E) (t : str).

  Definition has_key t c : bool := match lookup_str t c with Some _ => true | None => false end.

  Lemma lookup_setdefault t t' c :
    lookup_str t (setdefault t' c) = match lookup_str t c with Some l => Some l | None => if str_eqb t' t then Some [] else None end.
  Proof.
    induction c as [|[k v] c IH].
    - cbn [setdefault lookup_str]. reflexivity.
    - cbn [setdefault]. destruct (str_eqb k t') eqn:Ek.
      + cbn [lookup_str]. destruct (str_eqb k t) eqn:Ekt; [reflexivity|].
        apply str_eqb_eq in Ek. subst k. rewrite Ekt.
        destruct (lookup_str t c); reflexivity.
      + cbn [lookup_str]. destruct (str_eqb k t) eqn:Ekt; [reflexivity|]. exact IH.
  Qed.

  Lemma endpoints_setdefault t t' c : endpoints_at t (setdefault t' c) = endpoints_at t c.
  Proof.
    unfold endpoints_at. rewrite lookup_setdefault. destruct (lookup_str t c); [reflexivity|].
    destruct (str_eqb t' t); reflexivity.
  Qed.

  Lemma has_key_setdefault t t' c : has_key t (setdefault t' c) = str_eqb t' t || has_key t c.
  Proof. unfold has_key. rewrite lookup_setdefault. destruct (lookup_str t c), (str_eqb t' t); reflexivity. Qed.

  Lemma lookup_append t t' e c :
    lookup_str t (append_to t' e c) =
      if str_eqb t' t then option_map (fun l => l ++ [e]) (lookup_str t c) else lookup_str t c.
  Proof.
    induction c as [|[k v] c IH].
    - cbn [append_to lookup_str]. destruct (str_eqb t' t); reflexivity.
    - cbn [append_to]. destruct (str_eqb k t') eqn:Ek.
      + apply str_eqb_eq in Ek. subst k. cbn [lookup_str]. destruct (str_eqb t' t) eqn:Et; reflexivity.
      + cbn [lookup_str]. destruct (str_eqb k t) eqn:Ekt.
        * destruct (str_eqb t' t) eqn:Et; [|reflexivity].
          apply str_eqb_eq in Ekt. apply str_eqb_eq in Et. subst. rewrite str_eqb_refl in Ek. discriminate.
        * exact IH.
  Qed.

  Lemma has_key_append t t' e c : has_key t (append_to t' e c) = has_key t c.
  Proof. unfold has_key. rewrite lookup_append. destruct (str_eqb t' t); destruct (lookup_str t c); reflexivity. Qed.

  Lemma endpoints_append t t' e c : has_key t' c = true ->
    endpoints_at t (append_to t' e c) = endpoints_at t c ++ (if str_eqb t t' then [e] else []).
  Proof.
    intros Hk. unfold endpoints_at. rewrite lookup_append. rewrite (str_eqb_sym t t').
    destruct (str_eqb t' t) eqn:Et.
    - apply str_eqb_eq in Et. subst t'. unfold has_key in Hk. destruct (lookup_str t c); [reflexivity|discriminate].
    - rewrite app_nil_r. reflexivity.
  Qed.

  Lemma fold_setdefault_endpoints t ts : forall c, endpoints_at t (fold_left (fun c t => setdefault t c) ts c) = endpoints_at t c.
  Proof. induction ts as [|x ts IH]; intros c; [reflexivity|]. cbn [fold_left]. rewrite IH. apply endpoints_setdefault. Qed.

  Lemma fold_setdefault_keys ts : forall c x,
    has_key x (fold_left (fun c t => setdefault t c) ts c) = mem_str x ts || has_key x c.
  Proof.
    induction ts as [|y ts IH]; intros c x; [reflexivity|].
    cbn [fold_left]. rewrite IH, has_key_setdefault. unfold mem_str. cbn [existsb]. rewrite (str_eqb_sym x y).
    destruct (str_eqb y x), (existsb (str_eqb x) ts); reflexivity.
  Qed.

  Lemma fold_append_endpoints t e ts : forall c,
    (forall x, In x ts -> has_key x c = true) ->
    endpoints_at t (fold_left (fun c t => append_to t e c) ts c) = endpoints_at t c ++ repeat e (count_str t ts).
  Proof.
    induction ts as [|y ts IH]; intros c Hk.
    - cbn. rewrite app_nil_r. reflexivity.
    - cbn [fold_left]. rewrite IH.
      + rewrite endpoints_append by (apply Hk; left; reflexivity).
        rewrite <- app_assoc. f_equal. unfold count_str. cbn [filter]. destruct (str_eqb t y); reflexivity.
      + intros x Hx. rewrite has_key_append. apply Hk. right. exact Hx.
  Qed.

  Lemma place_endpoints t c ts (oe : option E) :
    endpoints_at t (place c ts oe) = endpoints_at t c ++ match oe with None => [] | Some e => repeat e (count_str t ts) end.
  Proof.
    unfold place. destruct oe as [e|].
    - rewrite fold_append_endpoints.
      + rewrite fold_setdefault_endpoints. reflexivity.
      + intros x Hx. rewrite fold_setdefault_keys. apply mem_str_In in Hx. now rewrite Hx.
    - rewrite fold_setdefault_endpoints, app_nil_r. reflexivity.
  Qed.

  Lemma collect_from_spec all t ops : forall c,
    endpoints_at t (collect_from all ops c) = endpoints_at t c ++ expected_at all t ops.
  Proof.
    induction ops as [|[tags oe] ops IH]; intros c.
    - cbn. rewrite app_nil_r. reflexivity.
    - unfold collect_from in *. cbn [fold_left fst snd]. rewrite IH, place_endpoints, <- app_assoc. reflexivity.
  Qed.

  (* complete characterisation of the tag selection, for every list of operations *)
  Theorem collect_spec : forall all t (ops : list (list str * option E)),
    endpoints_at t (collect all ops) = expected_at all t ops.
  Proof. intros all t ops. unfold collect. rewrite collect_from_spec. reflexivity. Qed.

  Lemma count_str_In t l : (0 < count_str t l)%nat <-> In t l.
  Proof.
    unfold count_str. induction l as [|x l IH]; cbn [filter In]; [cbn; lia|].
    destruct (str_eqb_spec t x) as [->|Hne]; cbn [List.length].
    - split; [now left|lia].
    - rewrite IH. split; [now right|intros [Hx|H]; [congruence|exact H]].
  Qed.

  Lemma In_expected all t ops e :
    In e (expected_at all t ops) <-> exists tags, In (tags, Some e) ops /\ In t (op_tags all tags).
  Proof.
    unfold expected_at. rewrite in_flat_map. split.
    - intros [[tags oe] [Hop Hin]]. cbn [fst snd] in Hin. destruct oe as [e'|]; [|destruct Hin].
      apply repeat_spec in Hin as Heq. subst e'. exists tags. split; [exact Hop|].
      apply count_str_In. destruct (count_str t (op_tags all tags)); [destruct Hin|lia].
    - intros [tags [Hop Ht]]. exists (tags, Some e). split; [exact Hop|]. cbn [fst snd].
      apply count_str_In in Ht. destruct (count_str t (op_tags all tags)) as [|n]; [lia|]. left. reflexivity.
  Qed.

  (* generate_all_tags: the SAME endpoint value sits under every one of its tags *)
  Theorem all_tags_identical : forall (ops : list (list str * option E)) tags e t,
    In (tags, Some e) ops -> In t (op_tags true tags) -> In e (endpoints_at t (collect true ops)).
  Proof. intros ops tags e t Hop Ht. rewrite collect_spec. apply In_expected. exists tags. split; assumption. Qed.

  (* option off: an endpoint sits under its first tag only *)
  Theorem first_tag_only : forall (ops : list (list str * option E)) e t,
    In e (endpoints_at t (collect false ops)) <-> exists tags, In (tags, Some e) ops /\ hd_error (op_tags true tags) = Some t.
  Proof.
    intros ops e t. rewrite collect_spec, In_expected.
    split; intros [tags [Hop H]]; exists tags; (split; [exact Hop|]); now apply op_tags_off_In.
  Qed.

  (* the module an endpoint gets with the option off is also there with the option on, holding the same value *)
  Theorem off_within_on : forall (ops : list (list str * option E)) e t,
    In e (endpoints_at t (collect false ops)) -> In e (endpoints_at t (collect true ops)).
  Proof.
    intros ops e t H. rewrite collect_spec, In_expected in *. destruct H as [tags [Hop H]]. exists tags. split; [exact Hop|].
    apply op_tags_off_In in H. destruct (op_tags true tags); [discriminate|]. injection H as ->. now left.
  Qed.

  Theorem op_tags_off : forall tags, op_tags false tags = firstn 1 (op_tags true tags).
  Proof. reflexivity. Qed.
  Theorem op_tags_nonempty : forall all tags, op_tags all tags <> [].
  Proof. intros all tags. unfold op_tags. destruct tags; destruct all; discriminate. Qed.
  (* an endpoint with at most one tag is placed identically *)
  Theorem single_tag_same : forall tags, (List.length tags <= 1)%nat -> op_tags true tags = op_tags false tags.
  Proof. intros [|a [|b l]] H; try reflexivity. cbn in H. lia. Qed.
End CollectThm.

Lemma ct_target_nil ct : ct_target [] ct = ct.
Proof. reflexivity. Qed.

(* classification is that of the override target *)
Theorem content_type_override : forall ovs ct, get_content_type ovs ct = get_content_type [] (ct_target ovs ct).
Proof. reflexivity. Qed.

(* ... while the media type string kept for the request header is the document's own *)
Theorem body_override : forall ovs ct,
  body_of ovs ct = option_map (fun b => {| b_sent := ct; b_type := b_type b |}) (body_of [] (ct_target ovs ct)).
Proof.
  intros ovs ct. unfold body_of. rewrite (content_type_override ovs ct).
  destruct (get_content_type [] (ct_target ovs ct)) as [p|]; [|reflexivity].
  destruct (body_type_of p); reflexivity.
Qed.

Theorem body_sent_as_itself : forall ovs ct b, body_of ovs ct = Some b -> b_sent b = ct.
Proof.
  intros ovs ct b. unfold body_of. destruct (get_content_type ovs ct) as [p|]; [|discriminate].
  destruct (body_type_of p); [|discriminate]. cbn. intros H. inversion H. reflexivity.
Qed.

Theorem source_override : forall ovs ct, source_of ovs ct = source_of [] (ct_target ovs ct).
Proof. reflexivity. Qed.

(* media types the table does not name are untouched *)
Theorem content_type_override_local : forall ovs ct, lookup_str ct ovs = None ->
  get_content_type ovs ct = get_content_type [] ct /\ body_of ovs ct = body_of [] ct /\ source_of ovs ct = source_of [] ct.
Proof.
  intros ovs ct H. unfold body_of, source_of. rewrite content_type_override. unfold ct_target. rewrite H.
  repeat split; reflexivity.
Qed.

Example content_type_override_example :
  let ovs := [(s2l "application/zip", s2l "application/octet-stream")] in
  body_of [] (s2l "application/zip") = None /\
  body_of ovs (s2l "application/zip") = Some {| b_sent := s2l "application/zip"; b_type := BContent |} /\
  source_of ovs (s2l "application/zip") = Some SrcBytes /\
  get_content_type [] (s2l "application/json; charset=utf-8") = Some (s2l "application/json") /\
  get_content_type [] (s2l "Application/JSON") = None.
Proof. vm_compute. repeat split; reflexivity. Qed.

Lemma map_flat_map {A B C} (g : B -> C) (f : A -> list B) l : map g (flat_map f l) = flat_map (fun x => map g (f x)) l.
Proof. induction l as [|x l IH]; [reflexivity|]. cbn [flat_map]. rewrite map_app, IH. reflexivity. Qed.

Lemma core_files_placed fl pkg d :
  map (app (pkg_prefix fl pkg)) (core_files d) =
  [pkg_prefix fl pkg ++ [f_init]] ++ [pkg_prefix fl pkg ++ [f_types]] ++ model_files fl pkg d ++ client_files fl pkg ++ api_files fl pkg d.
Proof.
  unfold core_files, model_files, client_files, api_files. cbv zeta.
  rewrite !map_app. cbn [map app]. rewrite map_map, map_flat_map, <- app_assoc.
  rewrite (flat_map_ext _ (fun te => (pkg_prefix fl pkg ++ [d_api_dir; fst te; f_init])
                                     :: map (fun e => pkg_prefix fl pkg ++ [d_api_dir; fst te; e ++ ext_py]) (snd te))).
  - reflexivity.
  - intros te. cbn [map]. rewrite map_map. reflexivity.
Qed.

Lemma flavour_only_split fl pkg :
  flavour_only fl pkg = metadata_files fl ++ match fl with FNone => [] | _ => [pkg_prefix fl pkg ++ [f_pytyped]] end.
Proof. destruct fl; reflexivity. Qed.

(* the generated file set = the package subtree (a function of the document alone, placed under the package prefix) + what the
   flavour decides *)
Theorem flavour_files : forall fl pkg d p,
  In p (gen_files fl pkg d) <-> In p (map (app (pkg_prefix fl pkg)) (core_files d)) \/ In p (flavour_only fl pkg).
Proof.
  intros fl pkg d p. rewrite core_files_placed, flavour_only_split. unfold gen_files, package_files. cbv zeta.
  rewrite !in_app_iff. tauto.
Qed.

(* the subtree itself does not mention the flavour or the package name *)
Theorem package_subtree_flavour_independent : forall fl1 fl2 pkg1 pkg2 d q,
  In (pkg_prefix fl1 pkg1 ++ q) (map (app (pkg_prefix fl1 pkg1)) (core_files d)) <->
  In (pkg_prefix fl2 pkg2 ++ q) (map (app (pkg_prefix fl2 pkg2)) (core_files d)).
Proof.
  intros. rewrite !in_map_iff. split; intros [x [E H]]; apply app_inv_head in E; subst x; exists q; split; auto.
Qed.

(* exactly these: pyproject.toml, README.md, .gitignore (+ setup.py for setup), py.typed in the nested package; nothing for none *)
Theorem flavour_only_table : forall pkg,
  flavour_only FNone pkg = [] /\
  flavour_only FPoetry pkg = [[f_pyproject]; [f_readme]; [f_gitignore]; [pkg; f_pytyped]] /\
  flavour_only FPdm pkg = [[f_pyproject]; [f_readme]; [f_gitignore]; [pkg; f_pytyped]] /\
  flavour_only FSetup pkg = [[f_pyproject]; [f_setup]; [f_readme]; [f_gitignore]; [pkg; f_pytyped]].
Proof. intros; repeat split; reflexivity. Qed.

Theorem title_prefix_option : forall b title name parent,
  (* no usable title: the option has no effect *)
  ((title = None \/ title = Some []) -> model_class_string b title name parent = model_class_string true title name parent) /\
  (* a title and the option off: exactly the title *)
  (forall c r, title = Some (c :: r) -> model_class_string false title name parent = c :: r).
Proof.
  intros b title name parent. split.
  - intros [->| ->]; destruct b; reflexivity.
  - intros c r ->. reflexivity.
Qed.

(* an override is taken verbatim *)
Theorem project_name_override_verbatim : forall c r title, project_name (Some (c :: r)) title = c :: r.
Proof. reflexivity. Qed.
Theorem package_name_override_verbatim : forall c r po title, package_name (Some (c :: r)) po title = c :: r.
Proof. reflexivity. Qed.

(* without a package override the package name is the project name with every `-` replaced by `_` and NOTHING else changed:
   same length, and position by position either the same character, or `-` became `_` *)
Theorem package_name_is_dash_replacement : forall po title,
  let p := project_name po title in
  let k := package_name None po title in
  List.length k = List.length p /\
  forall i, nth i k 0 = (if nth i p 0 =? 45 then 95 else nth i p 0).
Proof.
  intros po title p k. unfold k, package_name, nonempty_or. fold p. unfold replace_dash. split.
  - apply map_length.
  - intros i. exact (map_nth (fun c => if c =? 45 then 95 else c) p 0 i).
Qed.

(* in particular: case, digits, dots, spaces and underscores of a project_name_override survive; no dash remains *)
Theorem package_name_keeps_other_chars : forall c r title x,
  In x (package_name None (Some (c :: r)) title) -> x <> 45 /\ (In x (c :: r) \/ (x = 95 /\ In 45 (c :: r))).
Proof.
  intros c r title x H. unfold package_name, nonempty_or, project_name, replace_dash in H.
  apply in_map_iff in H. destruct H as [y [Hy Hin]]. destruct (N.eqb_spec y 45) as [E|E].
  - subst. split; [discriminate|]. right. split; [reflexivity|exact Hin].
  - subst. split; [exact E|]. left. exact Hin.
Qed.

Example package_name_examples :
  package_name None (Some (s2l "AcmeBilling-SDK")) (s2l "t") = s2l "AcmeBilling_SDK" /\
  package_name None (Some (s2l "billingV2-client")) (s2l "t") = s2l "billingV2_client" /\
  package_name None (Some (s2l "a.b c__d-E")) (s2l "t") = s2l "a.b c__d_E" /\
  package_name None None (s2l "My API v2") = s2l "my_api_v_2_client" /\
  project_name (Some []) (s2l "My API") = s2l "my-api-client".
Proof. vm_compute. repeat split; reflexivity. Qed.

Theorem all_writers_encoded : writers_ok = true.
Proof. vm_compute. reflexivity. Qed.
Theorem writers_sound : forall f site callee enc, In (f, site, callee, enc) gen_writers -> enc = true.
Proof.
  intros f site callee enc H. pose proof all_writers_encoded as W. unfold writers_ok in W. apply andb_true_iff in W. destruct W as [W _].
  exact (proj1 (forallb_forall _ _) W _ H).
Qed.
Theorem docstring_literals_documented : docstring_literals_ok = true.
Proof. vm_compute. reflexivity. Qed.
Theorem docstring_literals_sound : forall f e, In (f, e) gen_docstring_literals ->
  (f = s2l "templates/helpers.jinja" /\ e = s2l "content") \/ f = s2l "templates/client.py.jinja".
Proof.
  intros f e H. pose proof (proj1 (forallb_forall _ _) docstring_literals_documented _ H) as D.
  unfold docstring_literal_ok, documented_docstring_literals in D. cbn [existsb fst snd] in D.
  rewrite orb_false_r in D. apply orb_true_iff in D. destruct D as [D|D]; apply andb_true_iff in D; destruct D as [D1 D2].
  - left. apply str_eqb_eq in D1. apply pat_match_spec in D2. destruct D2 as [D2|D2].
    + exfalso. vm_compute in D2. discriminate.
    + split; [symmetry; exact D1|symmetry; exact D2].
  - right. apply str_eqb_eq in D1. symmetry. exact D1.
Qed.

Theorem metadata_reads_documented : metadata_reads_ok = true.
Proof. vm_compute. reflexivity. Qed.
Theorem metadata_reads_sound : forall f e, In (f, e) gen_metadata_reads -> In e documented_metadata_vars.
Proof.
  intros f e H. apply mem_str_In. exact (proj1 (forallb_forall _ _) metadata_reads_documented _ H).
Qed.
(* the version reaches a metadata file only through package_version *)
Corollary metadata_version_only_through_package_version : forall f e, In (f, e) gen_metadata_reads ->
  e <> s2l "openapi.version" /\ e <> s2l "openapi" /\ e <> s2l "config.package_version_override" /\ e <> s2l "config".
Proof.
  intros f e H. apply metadata_reads_sound in H.
  repeat split; intros ->; revert H; apply mem_str_false; reflexivity.
Qed.
Theorem version_declared : version_declared_ok = true.
Proof. vm_compute. reflexivity. Qed.
