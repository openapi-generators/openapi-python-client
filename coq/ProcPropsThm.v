(* ProcPropsThm.v — proofs about ProcProps.v: the allOf property loop, where merging (C15) and python-name conflict
   resolution (C09) interact. *)
From Coq Require Import NArith ZArith PeanoNat List Bool Lia.
Import ListNotations.
Require Import OPC.gen.GenTables OPC.Uni OPC.Names OPC.NamesThm OPC.PyLit OPC.Values OPC.Merge OPC.MergeThm.
Require Import OPC.Scopes OPC.ScopesThm OPC.ProcProps.
Open Scope N_scope.

#[local] Opaque python_identifier.

Lemma str_eqb_sym a b : str_eqb a b = str_eqb b a.
Proof. exact (UniThm.str_eqb_sym a b). Qed.

Lemma attr_eqb_eq a b : attr_eqb a b = true <-> a = b.
Proof.
  unfold attr_eqb. rewrite andb_true_iff, !str_eqb_eq. destruct a as [n1 p1], b as [n2 p2]; cbn [a_name a_py]. split.
  - intros [-> ->]. reflexivity.
  - intros H. injection H as -> ->. auto.
Qed.

Lemma attrs_eqb_eq : forall a b, list_eqb attr_eqb a b = true <-> a = b.
Proof. exact (list_eqb_eq attr_eqb attr_eqb_eq). Qed.

Lemma dedup_step_in acc n : In n acc -> dedup_step acc n = acc.
Proof. intro H. unfold dedup_step. apply mem_str_In in H. now rewrite H. Qed.
Lemma dedup_step_notin acc n : ~ In n acc -> dedup_step acc n = acc ++ [n].
Proof. intro H. unfold dedup_step. apply mem_str_false in H. now rewrite H. Qed.

Lemma dedup_step_cons x acc n : dedup_step (x :: acc) n = if str_eqb n x then x :: acc else x :: dedup_step acc n.
Proof.
  unfold dedup_step, mem_str. cbn [existsb]. destruct (str_eqb n x); [reflexivity|].
  cbn [orb]. now destruct (existsb (str_eqb n) acc).
Qed.

(* the dict keeps its key order: storing under a name is dedup_step on the names *)
Lemma put_attr_names c : forall l, map a_name (put_attr c l) = dedup_step (map a_name l) (a_name c).
Proof.
  induction l as [|x l IH]; cbn [put_attr map]; [reflexivity|].
  rewrite dedup_step_cons, (str_eqb_sym (a_name c)). destruct (str_eqb_spec (a_name x) (a_name c)) as [E|_]; cbn [map].
  - now rewrite E.
  - now rewrite IH.
Qed.

Lemma add_prop_names_step o acc n p acc' :
  add_prop o acc n p = Some acc' -> map fst acc' = dedup_step (map fst acc) n.
Proof.
  intro H. destruct (add_prop_names o _ _ _ _ H) as [[Hi ->]|[Hn ->]].
  - now rewrite dedup_step_in.
  - now rewrite dedup_step_notin.
Qed.

Lemma dedup_step_NoDup acc n : NoDup acc -> NoDup (dedup_step acc n).
Proof.
  intro H. unfold dedup_step. destruct (mem_str n acc) eqn:E; [exact H|].
  apply NoDup_snoc; [exact H | now apply mem_str_false].
Qed.

Lemma dedup_step_In acc n x : In x (dedup_step acc n) <-> In x acc \/ x = n.
Proof.
  unfold dedup_step. destruct (mem_str n acc) eqn:E.
  - apply mem_str_In in E. split; [auto | intros [H| ->]; assumption].
  - rewrite in_app_iff. cbn [In]. split; [intros [H|[H|[]]]; auto | intros [H| ->]; auto].
Qed.

Lemma fold_dedup_NoDup : forall l acc, NoDup acc -> NoDup (fold_left dedup_step l acc).
Proof. induction l as [|n l IH]; intros acc H; cbn [fold_left]; [exact H|]. apply IH. now apply dedup_step_NoDup. Qed.

Lemma fold_dedup_prefix : forall l acc, exists suf, fold_left dedup_step l acc = acc ++ suf.
Proof.
  induction l as [|n l IH]; intros acc; cbn [fold_left].
  - exists []. now rewrite app_nil_r.
  - destruct (IH (dedup_step acc n)) as [suf Hs]. rewrite Hs. unfold dedup_step.
    destruct (mem_str n acc).
    + now exists suf.
    + exists ([n] ++ suf). now rewrite app_assoc.
Qed.

Lemma fold_dedup_In : forall l acc x, In x (fold_left dedup_step l acc) <-> In x acc \/ In x l.
Proof.
  induction l as [|n l IH]; intros acc x; cbn [fold_left In]; [tauto|].
  rewrite IH, dedup_step_In. split.
  - intros [[H|H]|H]; auto.
  - intros [H|[H|H]]; auto.
Qed.

Theorem dedup_NoDup l : NoDup (dedup l).
Proof. apply fold_dedup_NoDup. constructor. Qed.
Theorem dedup_In l x : In x (dedup l) <-> In x l.
Proof. unfold dedup. rewrite fold_dedup_In. cbn [In]. tauto. Qed.

Lemma add_pp_ev_Ok o prefix st i st' q :
  add_pp_ev o prefix st i = POk (st', q) ->
  exists props' c attrs',
    add_prop o (st_props st) (i_name i) (i_prop i) = Some props' /\
    scan_conflicts prefix (mk_attr (i_name i) (merged_py st i)) (st_attrs st) = Ok (c, attrs') /\
    st' = mk_st (put_attr c attrs') props' /\
    q = attr_eqb c (mk_attr (i_name i) (merged_py st i)) && list_eqb attr_eqb attrs' (st_attrs st).
Proof.
  unfold add_pp_ev. destruct (add_prop o (st_props st) (i_name i) (i_prop i)) as [props'|]; [|discriminate].
  destruct (scan_conflicts prefix _ (st_attrs st)) as [[c attrs']|]; [|discriminate].
  intros [= <- <-]. now exists props', c, attrs'.
Qed.

(* the two parallel lists of the state carry the same document names, each once *)
Definition wf (st : pstate) : Prop :=
  map a_name (st_attrs st) = map fst (st_props st) /\ NoDup (map fst (st_props st)).

Lemma wf_empty : wf st_empty.
Proof. split; [reflexivity|constructor]. Qed.

Lemma add_pp_names o prefix st i st' q :
  wf st -> add_pp_ev o prefix st i = POk (st', q) ->
  wf st' /\ map fst (st_props st') = dedup_step (map fst (st_props st)) (i_name i).
Proof.
  intros [Hw Hnd] H. destruct (add_pp_ev_Ok _ _ _ _ _ _ H) as (props' & c & attrs' & Ea & Es & -> & _).
  unfold wf. cbn [st_attrs st_props].
  destruct (scan_spec _ _ _ _ _ Es) as [Hn [_ [Hm _]]]. cbn [a_name] in Hn.
  pose proof (add_prop_names_step _ _ _ _ _ Ea) as Hp.
  split; [|exact Hp]. split.
  - rewrite put_attr_names, Hm, Hn, Hw, Hp. reflexivity.
  - rewrite Hp. now apply dedup_step_NoDup.
Qed.

Lemma process_ev_names o prefix : forall ins st q st' q',
  wf st -> process_ev o prefix st q ins = POk (st', q') ->
  wf st' /\ map fst (st_props st') = fold_left dedup_step (map i_name ins) (map fst (st_props st)).
Proof.
  induction ins as [|i ins IH]; intros st q st' q' Hw H; cbn [process_ev] in H.
  - injection H as <- <-. split; [exact Hw|reflexivity].
  - destruct (add_pp_ev o prefix st i) as [[st1 q1]| | |] eqn:Ea; try discriminate.
    destruct (add_pp_names _ _ _ _ _ _ Hw Ea) as [Hw1 Hn1].
    destruct (IH _ _ _ _ Hw1 H) as [Hw' Hn']. split; [exact Hw'|].
    cbn [map fold_left]. now rewrite Hn', Hn1.
Qed.

Lemma out_of_gen (f : attr -> str) : forall (l1 : list attr) (l2 : list (str * mprop)),
  map a_name l1 = map fst l2 ->
  map (fun ap : attr * (str * mprop) => f (fst ap)) (combine l1 l2) = map f l1 /\
  map (fun ap : attr * (str * mprop) => (a_name (fst ap), snd (snd ap))) (combine l1 l2) = l2.
Proof.
  induction l1 as [|a l1 IH]; intros [|[n p] l2] H; cbn [map combine] in *; try discriminate.
  - split; reflexivity.
  - injection H as Hn Hr. destruct (IH _ Hr) as [H1 H2]. cbn [fst snd]. rewrite H1, H2, Hn. split; reflexivity.
Qed.

Lemma out_of_names st : wf st -> map i_name (out_of st) = map fst (st_props st).
Proof.
  intros [Hw _]. unfold out_of. rewrite map_map. cbn [i_name].
  rewrite (proj1 (out_of_gen a_name _ _ Hw)). exact Hw.
Qed.
Lemma out_of_pys st : wf st -> map i_py (out_of st) = map a_py (st_attrs st).
Proof.
  intros [Hw _]. unfold out_of. rewrite map_map. cbn [i_py]. exact (proj1 (out_of_gen a_py _ _ Hw)).
Qed.
Lemma out_of_payloads st : wf st -> payloads (out_of st) = st_props st.
Proof.
  intros [Hw _]. unfold payloads, out_of. rewrite map_map. cbn [i_name i_prop]. exact (proj2 (out_of_gen a_name _ _ Hw)).
Qed.

Lemma process_inv o prefix ins out :
  process o prefix ins = POk out ->
  exists st q, process_ev o prefix st_empty true ins = POk (st, q) /\ out = out_of st.
Proof.
  unfold process. destruct (process_ev o prefix st_empty true ins) as [[st q]| | |]; cbn [pres_map]; try discriminate.
  intro H. injection H as <-. now exists st, q.
Qed.

(* the composed model has exactly the incoming document names, each once, in order of first appearance *)
Theorem process_names_exact o prefix ins out :
  process o prefix ins = POk out ->
  map i_name out = in_names ins /\ NoDup (map i_name out) /\
  forall n, In n (map i_name out) <-> In n (map i_name ins).
Proof.
  intro H. destruct (process_inv _ _ _ _ H) as (st & q & He & ->).
  destruct (process_ev_names _ _ _ _ _ _ _ wf_empty He) as [Hw Hn]. cbn [st_empty st_props map] in Hn.
  assert (E: map i_name (out_of st) = in_names ins) by (rewrite out_of_names by exact Hw; exact Hn).
  rewrite E. split; [reflexivity|]. split; [apply dedup_NoDup|]. intro n. apply dedup_In.
Qed.

Lemma process_ev_collect o prefix : forall ins st q st' q',
  process_ev o prefix st q ins = POk (st', q') ->
  fold_left (cstep o) (payloads ins) (Some (st_props st)) = Some (st_props st').
Proof.
  induction ins as [|i ins IH]; intros st q st' q' H; cbn [process_ev] in H.
  - injection H as <- <-. reflexivity.
  - destruct (add_pp_ev o prefix st i) as [[st1 q1]| | |] eqn:Ea; try discriminate.
    destruct (add_pp_ev_Ok _ _ _ _ _ _ Ea) as (props' & c & attrs' & Ep & _ & -> & _).
    cbn [payloads map fold_left cstep fst snd]. rewrite Ep. exact (IH _ _ _ _ H).
Qed.

(* the payloads of the composed model are those of Merge.collect (C15) on the incoming payloads *)
Theorem process_collect o prefix ins out :
  process o prefix ins = POk out -> collect o (payloads ins) = Some (payloads out).
Proof.
  intro H. destruct (process_inv _ _ _ _ H) as (st & q & He & ->).
  destruct (process_ev_names _ _ _ _ _ _ _ wf_empty He) as [Hw _].
  rewrite out_of_payloads by exact Hw. rewrite collect_eq. exact (process_ev_collect _ _ _ _ _ _ _ He).
Qed.

(* a property of the composed model is required iff some incoming declaration of that name is *)
Theorem process_required o prefix ins out x :
  process o prefix ins = POk out -> In x out ->
  mp_required (i_prop x) = existsb (fun i => str_eqb (i_name x) (i_name i) && mp_required (i_prop i)) ins.
Proof.
  intros H Hin. pose proof (process_collect _ _ _ _ H) as Hc.
  assert (Hi: In (i_name x, i_prop x) (payloads out)).
  { unfold payloads. apply in_map_iff. now exists x. }
  rewrite (collect_required _ _ _ _ _ Hc Hi). unfold payloads. apply existsb_map.
Qed.

(* After adding / merging `i`: the stored entry c has i's document name; its python name is the merged property's one or the
   raw-name fallback; every other entry is unchanged or renamed to its raw name; every other entry that collided with the merged
   python name now differs from c; and if c kept the merged python name it differs from EVERY other entry (the scan skips the
   entry of the same document name and goes on).  Nothing is said about a third party whose python name equals a raw-name
   fallback made in this step (attr_rename_unchecked, process_step_distinct_refuted). *)
Theorem add_pp_guarantee o prefix st i st' q :
  add_pp_ev o prefix st i = POk (st', q) ->
  exists c attrs',
    st_attrs st' = put_attr c attrs' /\ a_name c = i_name i /\
    (a_py c = merged_py st i \/ a_py c = py_raw prefix (i_name i)) /\
    length attrs' = length (st_attrs st) /\
    forall k x x', nth_error (st_attrs st) k = Some x -> nth_error attrs' k = Some x' ->
      (x' = x \/ x' = attr_raw prefix x) /\
      (a_name x <> i_name i -> a_py x = merged_py st i -> a_py x' <> a_py c) /\
      (a_name x <> i_name i -> a_py c = merged_py st i -> a_py x' <> a_py c).
Proof.
  intro H. destruct (add_pp_ev_Ok _ _ _ _ _ _ H) as (props' & c & attrs' & _ & Es & -> & _).
  destruct (scan_spec _ _ _ _ _ Es) as [Hn [Hp [Hm Hi]]]. cbn [a_name a_py] in Hn, Hp, Hi.
  exists c, attrs'. split; [reflexivity|]. split; [exact Hn|]. split; [exact Hp|].
  split; [now rewrite <- (map_length a_name), Hm, map_length | exact Hi].
Qed.

Lemma put_attr_In c y : forall l, In y (put_attr c l) -> c = y \/ In y l.
Proof.
  induction l as [|z l IH]; cbn [put_attr In]; [tauto|].
  destruct (str_eqb (a_name z) (a_name c)); cbn [In]; [tauto|]. intros [H|H]; [tauto | apply IH in H; tauto].
Qed.

Lemma put_attr_NoDup c : forall l,
  NoDup (map a_name l) -> NoDup (map a_py l) ->
  (forall x, In x l -> a_name x <> a_name c -> a_py x <> a_py c) ->
  NoDup (map a_py (put_attr c l)).
Proof.
  induction l as [|x l IH]; intros Hn Hp Hc; cbn [put_attr map].
  - constructor; [intros []|constructor].
  - cbn [map] in Hn, Hp. inversion Hn as [|? ? Hxn Hln]; subst. inversion Hp as [|? ? Hxp Hlp]; subst.
    destruct (str_eqb_spec (a_name x) (a_name c)) as [E|E]; cbn [map]; constructor.
    + (* c takes x's place: no other entry has x's document name *)
      intro Hin. apply in_map_iff in Hin as [y [Hy Hyl]]. apply (Hc y); [now right| |exact Hy].
      intro En. apply Hxn. rewrite E, <- En. now apply in_map.
    + exact Hlp.
    + intro Hin. apply in_map_iff in Hin as [y [Hy Hyl]]. destruct (put_attr_In _ _ _ Hyl) as [<-|Hyl'].
      * apply (Hc x); [now left|exact E|now symmetry].
      * apply Hxp. rewrite <- Hy. now apply in_map.
    + apply IH; [exact Hln|exact Hlp|]. intros y Hyl. apply Hc. now right.
Qed.

Lemma add_pp_quiet o prefix st i st' :
  wf st -> NoDup (map a_py (st_attrs st)) ->
  add_pp_ev o prefix st i = POk (st', true) -> NoDup (map a_py (st_attrs st')).
Proof.
  intros [Hw Hnd] Hp H. destruct (add_pp_ev_Ok _ _ _ _ _ _ H) as (props' & c & attrs' & _ & Es & -> & Hq).
  cbn [st_attrs]. symmetry in Hq. apply andb_true_iff in Hq as [Hc Ha].
  apply attr_eqb_eq in Hc. apply attrs_eqb_eq in Ha. subst c attrs'.
  destruct (scan_spec _ _ _ _ _ Es) as [_ [_ [_ Hi]]].
  apply put_attr_NoDup; [now rewrite Hw|exact Hp|].
  intros x Hx Hne. destruct (In_nth_error _ _ Hx) as [k Hk].
  destruct (Hi k x x Hk Hk) as [_ [_ H3]]. apply H3; [exact Hne|reflexivity].
Qed.

(* the flag only falls *)
Lemma process_ev_flag o prefix : forall ins st q st', process_ev o prefix st q ins = POk (st', true) -> q = true.
Proof.
  induction ins as [|i ins IH]; intros st q st' H; cbn [process_ev] in H.
  - now injection H as _ ->.
  - destruct (add_pp_ev o prefix st i) as [[st1 q1]| | |]; try discriminate.
    apply IH in H. now apply andb_true_iff in H.
Qed.

Lemma process_ev_quiet o prefix : forall ins st q st',
  wf st -> NoDup (map a_py (st_attrs st)) ->
  process_ev o prefix st q ins = POk (st', true) ->
  wf st' /\ NoDup (map a_py (st_attrs st')).
Proof.
  induction ins as [|i ins IH]; intros st q st' Hw Hp H; cbn [process_ev] in H.
  - injection H as <- ->. auto.
  - destruct (add_pp_ev o prefix st i) as [[st1 q1]| | |] eqn:Ea; try discriminate.
    destruct (andb_prop _ _ (process_ev_flag _ _ _ _ _ _ H)) as [-> ->].
    destruct (add_pp_names _ _ _ _ _ _ Hw Ea) as [Hw1 _].
    pose proof (add_pp_quiet _ _ _ _ _ Hw Hp Ea) as Hp1.
    exact (IH _ _ _ Hw1 Hp1 H).
Qed.

(* for ALL incoming lists (whatever python names the incoming properties carry): a successful run in which
   no raw-name fallback took place ends with pairwise distinct python names — in particular a merged property whose python name
   reverted to that of the new declaration is compared with every other property *)
Theorem process_quiet_distinct o prefix ins out :
  process o prefix ins = POk out -> g_quiet o prefix ins = true -> NoDup (map i_py out).
Proof.
  intros H G. destruct (process_inv _ _ _ _ H) as (st & q & He & ->). unfold g_quiet in G. rewrite He in G. subst q.
  destruct (process_ev_quiet _ _ _ _ _ _ wf_empty (NoDup_nil _) He) as [Hw Hp].
  now rewrite out_of_pys.
Qed.

Lemma find_attr_name n : forall l a, find_attr n l = Some a -> a_name a = n /\ In a l.
Proof.
  induction l as [|x l IH]; intros a H; cbn [find_attr] in H; [discriminate|].
  destruct (str_eqb (a_name x) n) eqn:E.
  - injection H as <-. apply str_eqb_eq in E. split; [exact E|now left].
  - destruct (IH _ H) as [H1 H2]. split; [exact H1|now right].
Qed.

Lemma put_attr_init prefix n : forall names,
  put_attr (attr_init prefix n) (map (attr_init prefix) names) = map (attr_init prefix) (dedup_step names n).
Proof.
  induction names as [|x names IH]; cbn [map put_attr attr_init a_name]; [reflexivity|].
  rewrite dedup_step_cons, (str_eqb_sym n). destruct (str_eqb_spec x n) as [->|_]; cbn [map]; [reflexivity|].
  fold (attr_init prefix n). now rewrite IH.
Qed.

Definition all_default (prefix : str) (st : pstate) : Prop :=
  st_attrs st = map (attr_init prefix) (map fst (st_props st)).

Lemma add_pp_default o prefix st i :
  all_default prefix st ->
  i_py i = py_default prefix (i_name i) ->
  (forall y, In y (map fst (st_props st)) -> py_default prefix y = py_default prefix (i_name i) -> y = i_name i) ->
  add_pp_ev o prefix st i = PErrMerge \/
  exists st', add_pp_ev o prefix st i = POk (st', true) /\ all_default prefix st'.
Proof.
  intros Hd Hi Hg. unfold add_pp_ev.
  destruct (add_prop o (st_props st) (i_name i) (i_prop i)) as [props'|] eqn:Ea; [|now left]. right.
  pose proof (add_prop_names_step _ _ _ _ _ Ea) as Hp.
  assert (Hm: merged_py st i = py_default prefix (i_name i)).
  { unfold merged_py. destruct (find_attr (i_name i) (st_attrs st)) as [a|] eqn:Ef; [|exact Hi].
    destruct (find_prop (i_name i) (st_props st)) as [p1|]; [|exact Hi].
    destruct (base_is_new p1 (i_prop i)); [exact Hi|].
    destruct (find_attr_name _ _ _ Ef) as [Hn Hin]. rewrite Hd in Hin. apply in_map_iff in Hin as [x [<- _]].
    cbn [attr_init a_name a_py] in *. now rewrite Hn. }
  rewrite Hm. fold (attr_init prefix (i_name i)).
  rewrite scan_no_conflict.
  - (* nothing was renamed: the flag compares the scan's result with its input *)
    rewrite (proj2 (attr_eqb_eq _ _) eq_refl), (proj2 (attrs_eqb_eq _ _) eq_refl). eexists. split; [reflexivity|].
    unfold all_default. cbn [st_attrs st_props]. rewrite Hd, put_attr_init, Hp. reflexivity.
  - intros x Hx Hne. rewrite Hd in Hx. apply in_map_iff in Hx as [y [<- Hy]]. cbn [attr_init a_name a_py] in *.
    intro E. apply Hne. now apply Hg.
Qed.

Lemma process_ev_default o prefix : forall ins st q,
  wf st -> all_default prefix st -> ins_default prefix ins = true ->
  NoDup (map (py_default prefix) (fold_left dedup_step (map i_name ins) (map fst (st_props st)))) ->
  process_ev o prefix st q ins = PErrMerge \/
  exists st', process_ev o prefix st q ins = POk (st', q) /\ wf st' /\ all_default prefix st'.
Proof.
  induction ins as [|i ins IH]; intros st q Hw Hd Hi Hg; cbn [process_ev].
  - right. exists st. auto.
  - cbn [ins_default forallb] in Hi. apply andb_true_iff in Hi as [Hi1 Hi2]. apply str_eqb_eq in Hi1.
    cbn [map fold_left] in Hg.
    assert (Hg1: forall y, In y (map fst (st_props st)) -> py_default prefix y = py_default prefix (i_name i) -> y = i_name i).
    { intros y Hy. apply (NoDup_map_inj _ _ Hg); apply fold_dedup_In; left; apply dedup_step_In; auto. }
    destruct (add_pp_default o _ _ _ Hd Hi1 Hg1) as [E|[st1 [E Hd1]]]; rewrite E; [now left|].
    destruct (add_pp_names _ _ _ _ _ _ Hw E) as [Hw1 Hn1].
    rewrite andb_true_r. apply IH; [exact Hw1|exact Hd1|exact Hi2|]. now rewrite Hn1.
Qed.

(* when the incoming properties carry their default python names and no two document names
   collide after snake-casing (g_no_raw_fallback), the run never ends in the naming diagnostic, nothing is renamed, and a
   successful run gives every document name its default python name: pairwise distinct *)
Theorem process_python_names_distinct o prefix ins :
  ins_default prefix ins = true -> g_no_raw_fallback prefix (in_names ins) = true ->
  process o prefix ins <> PErrName /\ process o prefix ins <> PErrRef /\ g_quiet o prefix ins = true /\
  forall out, process o prefix ins = POk out ->
    map i_name out = in_names ins /\
    map i_py out = map (py_default prefix) (in_names ins) /\ NoDup (map i_py out).
Proof.
  intros Hi G. apply nodupb_NoDup in G.
  destruct (process_ev_default o prefix ins st_empty true wf_empty eq_refl Hi G) as [E|[st [E [Hw Hd]]]];
    unfold process, g_quiet; rewrite E; cbn [pres_map].
  - split; [discriminate|]. split; [discriminate|]. split; [reflexivity|]. intros out0 H. discriminate H.
  - split; [discriminate|]. split; [discriminate|]. split; [reflexivity|]. intros out0 H. injection H as <-.
    destruct (process_ev_names _ _ _ _ _ _ _ wf_empty E) as [_ Hn]. cbn [st_empty st_props map] in Hn.
    assert (Hpy: map i_py (out_of st) = map (py_default prefix) (in_names ins)).
    { rewrite out_of_pys by exact Hw. rewrite Hd, map_map. cbn [attr_init a_py]. now rewrite Hn. }
    split; [rewrite out_of_names by exact Hw; exact Hn|]. split; [exact Hpy|]. rewrite Hpy. exact G.
Qed.

Lemma process_ev_app o prefix : forall l1 l2 st q,
  process_ev o prefix st q (l1 ++ l2) =
  match process_ev o prefix st q l1 with
  | POk sq => process_ev o prefix (fst sq) (snd sq) l2
  | PErrMerge => PErrMerge | PErrName => PErrName | PErrRef => PErrRef
  end.
Proof.
  induction l1 as [|i l1 IH]; intros l2 st q; cbn [app process_ev fst snd]; [reflexivity|].
  destruct (add_pp_ev o prefix st i) as [[st1 q1]| | |]; try reflexivity. apply IH.
Qed.

Lemma run_refs_flat o prefix ps : forall ms sq sq',
  run_refs o prefix ps ms sq = POk sq' ->
  exists r, ref_inputs o prefix ps ms = Some r /\ process_ev o prefix (fst sq) (snd sq) r = POk sq'.
Proof.
  induction ms as [|[k|s] ms IH]; intros sq sq' H; cbn [run_refs ref_inputs] in *.
  - injection H as <-. exists []. split; [reflexivity|]. cbn [process_ev]. now destruct sq.
  - destruct (nth_error ps k) as [s|]; [|discriminate].
    destruct (parent_out o prefix s) as [l| | |]; try discriminate.
    destruct (process_ev o prefix (fst sq) (snd sq) l) as [sq1| | |] eqn:E1; try discriminate.
    destruct (IH _ _ H) as [r [Hr Hp]]. rewrite Hr. exists (l ++ r). split; [reflexivity|].
    rewrite process_ev_app, E1. exact Hp.
  - exact (IH _ _ H).
Qed.

(* the composed schema's run is the run on the flat incoming list *)
Theorem process_doc_flat o prefix d out :
  process_doc o prefix d = POk out ->
  exists ins, doc_inputs o prefix d = Some ins /\ process o prefix ins = POk out /\
              g_quiet o prefix ins = g_quiet_doc o prefix d.
Proof.
  unfold process_doc, g_quiet_doc, process_doc_ev. intro H.
  destruct (run_refs o prefix (c_parents d) (c_members d) (st_empty, true)) as [sq| | |] eqn:Er; try discriminate.
  destruct (run_refs_flat _ _ _ _ _ _ Er) as [r [Hr Hp]]. cbn [fst snd] in Hp.
  unfold doc_inputs. rewrite Hr. eexists. split; [reflexivity|].
  unfold process, g_quiet. rewrite process_ev_app, Hp.
  destruct (process_ev o prefix (fst sq) (snd sq) (unprocessed prefix d)) as [[st q]| | |]; try discriminate.
  split; [exact H|reflexivity].
Qed.

(* names and payloads, for the composed schema of a document *)
Theorem process_doc_names_exact o prefix d out :
  process_doc o prefix d = POk out ->
  exists ins, doc_inputs o prefix d = Some ins /\
    map i_name out = in_names ins /\ NoDup (map i_name out) /\ (forall n, In n (map i_name out) <-> In n (map i_name ins)) /\
    collect o (payloads ins) = Some (payloads out).
Proof.
  intro H. destruct (process_doc_flat _ _ _ _ H) as (ins & Hi & Hp & _). exists ins. split; [exact Hi|].
  destruct (process_names_exact _ _ _ _ Hp) as [H1 [H2 H3]]. repeat split; try assumption; try apply H3.
  exact (process_collect _ _ _ _ Hp).
Qed.

Theorem process_doc_quiet_distinct o prefix d out :
  process_doc o prefix d = POk out -> g_quiet_doc o prefix d = true -> NoDup (map i_py out).
Proof.
  intros H G. destruct (process_doc_flat _ _ _ _ H) as (ins & _ & Hp & Hq).
  apply (process_quiet_distinct _ _ _ _ Hp). now rewrite Hq.
Qed.

(* every list handed to the composed schema carries default python names: its own properties, each referenced member's output,
   their concatenation *)
Lemma own_inputs_default prefix req ds : ins_default prefix (own_inputs prefix req ds) = true.
Proof.
  unfold ins_default, own_inputs. apply forallb_forall. intros x Hx. apply in_map_iff in Hx as [d [<- _]].
  cbn [i_py i_name]. apply str_eqb_refl.
Qed.

Lemma own_inputs_names prefix req ds : map i_name (own_inputs prefix req ds) = map fst ds.
Proof. unfold own_inputs. rewrite map_map. reflexivity. Qed.

Lemma ins_default_of_pys prefix : forall l,
  map i_py l = map (py_default prefix) (map i_name l) -> ins_default prefix l = true.
Proof.
  induction l as [|x l IH]; intro H; [reflexivity|]. cbn [map] in H. injection H as Hx Hl.
  cbn [ins_default forallb]. rewrite Hx, str_eqb_refl. exact (IH Hl).
Qed.

Lemma ins_default_filter prefix f l : ins_default prefix l = true -> ins_default prefix (filter f l) = true.
Proof.
  unfold ins_default. rewrite !forallb_forall. intros H x Hx. apply filter_In in Hx as [Hx _]. now apply H.
Qed.

Lemma ins_default_app prefix a b : ins_default prefix (a ++ b) = ins_default prefix a && ins_default prefix b.
Proof. apply forallb_app. Qed.

Lemma parent_out_default o prefix s l :
  g_no_raw_fallback prefix (dedup (map fst (fst s))) = true ->
  parent_out o prefix s = POk l -> ins_default prefix l = true.
Proof.
  intros G H. unfold parent_out in H.
  match type of H with pres_map _ ?p = _ => destruct p as [l0| | |] eqn:Ep end; cbn [pres_map] in H; try discriminate.
  injection H as <-.
  assert (Gi: g_no_raw_fallback prefix (in_names (own_inputs prefix (snd s) (fst s))) = true).
  { unfold in_names. now rewrite own_inputs_names. }
  destruct (process_python_names_distinct o prefix _ (own_inputs_default _ _ _) Gi) as [_ [_ [_ Ho]]].
  destruct (Ho _ Ep) as [Hn [Hp _]].
  unfold req_first. rewrite ins_default_app. apply andb_true_iff.
  rewrite <- Hn in Hp. split; apply ins_default_filter; exact (ins_default_of_pys _ _ Hp).
Qed.

Lemma ref_inputs_default o prefix ps : forall ms r,
  forallb (fun s : schema => g_no_raw_fallback prefix (dedup (map fst (fst s)))) ps = true ->
  ref_inputs o prefix ps ms = Some r -> ins_default prefix r = true.
Proof.
  induction ms as [|[k|s] ms IH]; intros r G H; cbn [ref_inputs] in H.
  - injection H as <-. reflexivity.
  - destruct (nth_error ps k) as [s|] eqn:En; [|discriminate].
    destruct (parent_out o prefix s) as [l| | |] eqn:Ep; try discriminate.
    destruct (ref_inputs o prefix ps ms) as [r0|]; [|discriminate]. injection H as <-.
    rewrite ins_default_app. apply andb_true_iff. split; [|now apply IH].
    apply (parent_out_default o _ s); [|exact Ep].
    rewrite forallb_forall in G. apply G. eapply nth_error_In. exact En.
  - now apply IH.
Qed.

(* no two property names collide after snake-casing, neither inside a referenced member nor
   among all the names the composed schema receives: the composed model gets the default python names, pairwise distinct,
   whatever is merged with whatever *)
Theorem process_doc_python_names_distinct o prefix d ins out :
  g_parents prefix d = true -> doc_inputs o prefix d = Some ins ->
  g_no_raw_fallback prefix (in_names ins) = true ->
  process_doc o prefix d = POk out ->
  map i_name out = in_names ins /\ map i_py out = map (py_default prefix) (in_names ins) /\ NoDup (map i_py out).
Proof.
  intros Gp Hi G H. destruct (process_doc_flat _ _ _ _ H) as (ins' & Hi' & Hp & _).
  rewrite Hi in Hi'. injection Hi' as <-.
  assert (Hd: ins_default prefix ins = true).
  { unfold doc_inputs in Hi. destruct (ref_inputs o prefix (c_parents d) (c_members d)) as [r|] eqn:Er; [|discriminate].
    injection Hi as <-. rewrite ins_default_app. apply andb_true_iff. split.
    - exact (ref_inputs_default _ _ _ _ _ Gp Er).
    - apply own_inputs_default. }
  destruct (process_python_names_distinct o prefix ins Hd G) as [_ [_ [_ Ho]]]. exact (Ho _ Hp).
Qed.

Definition w_o : oracles :=
  {| parse_float := fun _ => None; float_of_int := fun _ => None; isoparse_ok := fun _ => false; uuid_ok := fun _ => false |}.
Definition w_fp : str := [102;105;101;108;100;95].
Definition w_P (k : mkind) : mprop := MP k false None None None PL_none.
Definition w_in (n : str) (k : mkind) : inp := mk_inp n (py_default w_fp n) (w_P k).
Definition s_startDate : str := [115;116;97;114;116;68;97;116;101].
Definition s_start_date : str := [115;116;97;114;116;95;100;97;116;101].
Definition s_endTime : str := [101;110;100;84;105;109;101].
Definition s_fooBar : str := [102;111;111;66;97;114].
Definition s_FooBar : str := [70;111;111;66;97;114].
Definition s_Foo_bar : str := [70;111;111;95;98;97;114].
Definition s_dfoo_Bar : str := [36;102;111;111;95;66;97;114].
Definition s_foo_Bar : str := [102;111;111;95;66;97;114].

(* non-vacuity, a merge together with a raw-name fallback: startDate (string), start_date (string) are told apart by their raw
   names; a later member re-declares startDate as a date, the merged property is based on the NEW declaration and carries the
   python name start_date again; the scan skips the stored startDate, meets start_date and falls back to the raw names once more *)
Example process_merge_fallback :
  process w_o w_fp [w_in s_startDate MStr; w_in s_start_date MStr; w_in s_startDate MDate]
  = POk [mk_inp s_startDate s_startDate (w_P MDate); mk_inp s_start_date s_start_date (w_P MStr)] /\
  merged_py (mk_st [mk_attr s_startDate s_startDate; mk_attr s_start_date s_start_date]
                   [(s_startDate, w_P MStr); (s_start_date, w_P MStr)]) (w_in s_startDate MDate) = s_start_date /\
  g_quiet w_o w_fp [w_in s_startDate MStr; w_in s_start_date MStr; w_in s_startDate MDate] = false.
Proof. unfold w_in. rewrite !py_default_f. vm_compute. repeat split. Qed.

(* the static guard is satisfiable by a list with a merge that changes the base (string then date) *)
Example process_guard_nonvacuous :
  let ins := [w_in s_startDate MStr; w_in s_endTime MInt; w_in s_startDate MDate] in
  ins_default w_fp ins = true /\ g_no_raw_fallback w_fp (in_names ins) = true /\
  exists out, process w_o w_fp ins = POk out /\ length out = 2%nat /\ base_is_new (w_P MStr) (w_P MDate) = true.
Proof.
  intro ins. split; [|split].
  - apply forallb_forall. intros i [<-|[<-|[<-|[]]]]; apply str_eqb_refl.
  - change (in_names ins) with [s_startDate; s_endTime]. unfold g_no_raw_fallback. cbn [map].
    rewrite !py_default_f. vm_compute. reflexivity.
  - subst ins. unfold w_in. rewrite !py_default_f. eexists. vm_compute. repeat split.
Qed.

(* without the guards: a step can leave two properties with one python name although the state before it was distinct.
   Referenced member {fooBar, FooBar} (already told apart by raw names), then Foo_bar, $foo_Bar, foo_Bar (the first two collide and
   fall back: Foo_bar, foo_Bar; the third keeps foo_bar), then fooBar re-declared as a date: the merged property carries foo_bar
   again, collides with the entry of foo_Bar, both fall back to raw names - and foo_Bar is now also the python name of $foo_Bar,
   which the scan had already passed (attr_rename_unchecked, reached through a merge) *)
Definition w_refuted_ins : list inp :=
  [mk_inp s_fooBar s_fooBar (w_P MStr); mk_inp s_FooBar s_FooBar (w_P MStr);
   w_in s_Foo_bar MStr; w_in s_dfoo_Bar MStr; w_in s_foo_Bar MStr].

Theorem process_step_distinct_refuted :
  exists ins i out_before out,
    process w_o w_fp ins = POk out_before /\ NoDup (map i_py out_before) /\
    In (i_name i) (map i_name ins) /\
    process w_o w_fp (ins ++ [i]) = POk out /\ ~ NoDup (map i_py out) /\
    g_quiet w_o w_fp (ins ++ [i]) = false.
Proof.
  exists w_refuted_ins, (w_in s_fooBar MDate). eexists. eexists.
  unfold w_refuted_ins, w_in. rewrite !py_default_f.
  split; [vm_compute; reflexivity|]. split; [apply nodupb_NoDup; vm_compute; reflexivity|].
  split; [left; reflexivity|]. split; [vm_compute; reflexivity|]. split; [|vm_compute; reflexivity].
  intro H. apply nodupb_NoDup in H. vm_compute in H. discriminate.
Qed.

Print Assumptions process_names_exact.
Print Assumptions process_collect.
Print Assumptions process_required.
Print Assumptions add_pp_guarantee.
Print Assumptions process_quiet_distinct.
Print Assumptions process_python_names_distinct.
Print Assumptions process_doc_flat.
Print Assumptions process_doc_python_names_distinct.
Print Assumptions process_step_distinct_refuted.
