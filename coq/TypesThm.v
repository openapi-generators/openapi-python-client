(* TypesThm.v — proofs about Types.v (C10, C11, C01). C11 follows from the typing of decoded values in TypedThm.v. *)
From Coq Require Import NArith ZArith List Bool Lia Permutation.
Import ListNotations.
Require Import OPC.gen.GenKinds OPC.Uni OPC.Names OPC.NamesThm OPC.Codec OPC.MapsThm OPC.CodecThm OPC.Types OPC.Typed OPC.TypedThm.
Open Scope N_scope.

Lemma pk_ind' (P : pk -> Prop) :
  (forall k, match k with KList _ | KUnion _ => True | _ => P k end) ->
  (forall i, P i -> P (KList i)) ->
  (forall ms, Forall P ms -> P (KUnion ms)) ->
  forall k, P k.
Proof.
  intros Hb Hl Hu. fix IH 1. intro k. destruct k; try match goal with |- P ?x => exact (Hb x) end.
  - apply Hl, IH.
  - apply Hu. induction ms as [|m ms IHms]; constructor; [apply IH | exact IHms].
Qed.

Definition no_union (t : ty) : bool := match t with TyUnion _ => false | _ => true end.

Lemma alts_no_union k : forallb no_union (alts k) = true.
Proof.
  revert k. apply pk_ind'; [intro k|intros i IHi|intros ms IHms].
  - destruct k; try exact I; reflexivity.
  - reflexivity.
  - simpl. induction IHms as [|m ms Hm _ IHl]; simpl; [reflexivity|]. now rewrite forallb_app, Hm, IHl.
Qed.

Lemma alts_none k : existsb is_none_ty (alts k) = nullable k.
Proof.
  revert k. apply pk_ind'; [intro k|intros i IHi|intros ms IHms].
  - destruct k; try exact I; try reflexivity; cbn [alts existsb is_none_ty nullable]; now rewrite !orb_false_r.
  - reflexivity.
  - cbn [alts nullable]. rewrite existsb_flat_map.
    induction IHms as [|m ms Hm _ IHl]; simpl; [reflexivity|]. now rewrite Hm, IHl.
Qed.

Lemma top_alts_collapse L : forallb no_union L = true ->
  top_alts (match L with [] => TyUnion [] | [t] => t | t :: t' :: ts => TyUnion (t :: t' :: ts) end) = L.   (* type_of's match, expanded *)
Proof.
  destruct L as [|t [|t' L]]; try reflexivity. cbn [forallb]. rewrite andb_true_r.
  destruct t; try reflexivity; discriminate.
Qed.

Lemma top_alts_type_of k req : top_alts (type_of k req) = if req then alts k else TyUnset :: alts k.
Proof.
  unfold type_of. apply top_alts_collapse. destruct req; cbn [forallb no_union andb]; apply alts_no_union.
Qed.

(* C10: the declared type admits None exactly when the schema is nullable, for required and optional declarations alike *)
Theorem type_admits_none_iff_nullable : forall k req, admits_none (type_of k req) = nullable k.
Proof.
  intros k req. unfold admits_none. rewrite top_alts_type_of.
  destruct req; cbn [existsb is_none_ty orb]; apply alts_none.
Qed.

(* C10: an optional declaration always admits the UNSET sentinel *)
Theorem optional_admits_unset : forall k, admits_unset (type_of k false) = true.
Proof. intro k. unfold admits_unset. rewrite top_alts_type_of. reflexivity. Qed.

(* C10: a declaration has no default (the argument is mandatory) exactly for required properties without a declared default *)
Theorem mandatory_iff_required_nodefault : forall req d, decl_has_default req d = false <-> (req = true /\ d = false).
Proof. intros [] []; cbv; split; try tauto; try discriminate; intros [? ?]; discriminate. Qed.

Lemma app_split_notin {A} (x : A) : forall (a b l1 r : list A), a ++ b = l1 ++ x :: r -> ~ In x a ->
  exists l1', b = l1' ++ x :: r.
Proof.
  induction a as [|a0 a IHa]; intros b l1 r H Hn.
  - exists l1. exact H.
  - destruct l1 as [|y l1]; simpl in H; injection H as H0 H.
    + exfalso. apply Hn. left. exact H0.
    + eapply IHa; eauto. intro Hin. apply Hn. now right.
Qed.

(* C01 / C10: the two rendering loops of the class body put every mandatory field before every defaulted one ... *)
Theorem attrs_order_ok : forall (A : Type) (mand : A -> bool) (props l1 l2 l3 : list A) (x y : A),
  attrs_field_order mand props = l1 ++ x :: l2 ++ y :: l3 -> mand x = false -> mand y = false.
Proof.
  intros A mand props l1 l2 l3 x y H Hx. unfold attrs_field_order in H.
  apply app_split_notin in H as [l1' H].
  - assert (Hy: In y (filter (fun p => negb (mand p)) props)).
    { rewrite H. apply in_or_app. right. right. apply in_or_app. right. now left. }
    apply filter_In in Hy as [_ Hy]. now apply negb_true_iff in Hy.
  - intro Hin. apply filter_In in Hin as [_ Hin]. congruence.
Qed.

(* ... and lose none *)
Theorem attrs_order_perm : forall (A : Type) (mand : A -> bool) (props : list A), Permutation (attrs_field_order mand props) props.
Proof.
  intros A mand props. unfold attrs_field_order. induction props as [|a l IHl]; simpl; [constructor|].
  destruct (mand a); simpl.
  - now constructor.
  - apply Permutation_sym, Permutation_cons_app, Permutation_sym, IHl.
Qed.

(* C11: every value produced by decoding schema-valid data is an instance of the annotated type *)
Theorem decode_inhabits_annotation : forall orc T f k j v,
  table_ok T = true -> k_ok k = true -> wf_json j = true ->
  valid orc T f k j = true -> dec orc T f k j = Some v -> inhabits v (type_of k true) = true.
Proof.
  intros orc T f k j v HT Hk Hw Hv Hd. eapply wt_inhabits, decoded_is_well_typed; eauto.
Qed.

Lemma dec_props_names d ps : forall m fs rest, dec_props d ps m = Some (fs, rest) -> map fst fs = map fst ps.
Proof.
  induction ps as [|[n [req k]] ps IHps]; intros m fs rest H; cbn [dec_props] in H.
  - injection H as <- _. reflexivity.
  - destruct (dec_field d k req (m_get n m)); [|discriminate H].
    destruct (dec_props d ps (m_del n m)) as [[fs' rest']|] eqn:E; [|discriminate H].
    injection H as <- _. simpl. f_equal. eauto.
Qed.

Lemma field_inh orc T f k req s v : table_ok T = true -> k_ok k = true ->
  match s with Some j => wf_json j = true /\ valid orc T f k j = true | None => True end ->
  dec_field (dec orc T f) k req s = Some v -> inhabits v (type_of k req) = true.
Proof.
  intros HT Hk Hs Hd. apply (wt_field_inhabits T f).
  exact (field_wt orc T f k req s v HT Hk Hs Hd).
Qed.

Lemma dec_model_names orc T f c cd m fs ad : get_class T c = Some cd ->
  dec orc T (S f) (KModel c) (JObj m) = Some (PObj c fs ad) -> map fst fs = map fst (c_props cd).
Proof.
  intros Hc Hd. rewrite dec_S_model, dec_model_obj, Hc in Hd. unfold dec_obj in Hd.
  destruct (dec_props (dec orc T f) (c_props cd) m) as [[fs0 rest]|] eqn:Edp; [|discriminate Hd].
  destruct (dec_addl (dec orc T f) cd rest); [|discriminate Hd]. injection Hd as <- _. eapply dec_props_names, Edp.
Qed.

(* C11: ... including every attribute of a decoded model object, against the attribute's own declaration *)
Theorem decoded_fields_inhabit : forall orc T f c cd j fs ad name req k v,
  table_ok T = true -> wf_json j = true -> get_class T c = Some cd -> valid orc T f (KModel c) j = true ->
  dec orc T f (KModel c) j = Some (PObj c fs ad) ->
  In (name, (req, k)) (c_props cd) -> In (name, v) fs -> inhabits v (type_of k req) = true.
Proof.
  intros orc T f c cd j fs ad name req k v HT Hw Hc Hv Hd Hp Hf.
  pose proof (decoded_is_well_typed orc T f (KModel c) j _ HT eq_refl Hw Hv Hd) as Hwt.
  destruct f as [|f]; [discriminate Hv|]. cbn [valid valid_step] in Hv. rewrite Hc in Hv. destruct j as [| | | | | |m]; try discriminate Hv.
  destruct (wt_model_inv T f c c fs ad Hwt) as (cd' & Hc' & _ & Hwp & _). rewrite Hc in Hc'. injection Hc' as <-.
  destruct (wt_props_In _ name req k fs _ Hwp Hp) as (v' & Hl & Hwf).
  destruct (table_cdef T c cd HT Hc) as (_ & Hnd & _).
  rewrite (lookf_In name v fs (c_props cd) Hnd (dec_model_names orc T f c cd m fs ad Hc Hd) Hf) in Hl.
  injection Hl as <-. eapply wt_field_inhabits, Hwf.
Qed.

(* non-vacuity: nullable and non-nullable kinds, on both sides of type_admits_none_iff_nullable *)
Example nullable_example : nullable (KUnion [KDate; KNone]) = true /\ nullable (KList KNone) = false /\
  admits_none (type_of (KUnion [KDate; KNone]) false) = true /\ admits_none (type_of KDate false) = false.
Proof. repeat split; vm_compute; reflexivity. Qed.

Print Assumptions type_admits_none_iff_nullable.
Print Assumptions optional_admits_unset.
Print Assumptions mandatory_iff_required_nodefault.
Print Assumptions attrs_order_ok.
Print Assumptions attrs_order_perm.
Print Assumptions decode_inhabits_annotation.
Print Assumptions decoded_fields_inhabit.
Print Assumptions nullable_example.
