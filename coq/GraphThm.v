(* GraphThm.v -- theorems about the schema-graph machine of Graph.v, for ALL graphs:
   loops_terminate (the fuel of the three loops suffices), accounting (every component is a survivor or named in a diagnostic),
   removal_closed / classes_closed (what survives refers only to survivors, under the guards), removal_exact (the cascade deletes
   nothing else), and witnesses *_refuted: a guard fails and its conclusion with it; the name without _refuted is an entry of
   known_findings.json (name_pressure_refuted: name_pressure_pop). *)
From Coq Require Import NArith List Bool Lia PeanoNat.
Import ListNotations.
Require Import OPC.Graph.
Open Scope N_scope.

Lemma has_lookup {A} (l : list (N * A)) k : has l k = true <-> exists v, lookup l k = Some v.
Proof. unfold has. destruct (lookup l k) as [v|]; split; intro H; [eauto|reflexivity|discriminate|destruct H; discriminate]. Qed.

Lemma lookup_cons {A} (l : list (N * A)) k k' v : lookup ((k', v) :: l) k = if k' =? k then Some v else lookup l k.
Proof. reflexivity. Qed.

Lemma has_cons {A} (l : list (N * A)) k k' v : has ((k', v) :: l) k = (k' =? k) || has l k.
Proof. unfold has. rewrite lookup_cons. destruct (k' =? k); reflexivity. Qed.

Lemma has_in {A} (l : list (N * A)) k : has l k = true <-> In k (map fst l).
Proof.
  induction l as [|[k' v] l IH]; cbn [map fst].
  - split; [discriminate|intros []].
  - rewrite has_cons, orb_true_iff, IH, N.eqb_eq. cbn. tauto.
Qed.

Lemma has_del {A} (l : list (N * A)) k k' : has (del k l) k' = negb (k =? k') && has l k'.
Proof.
  induction l as [|[k0 v] l IH]; [now rewrite andb_false_r|].
  unfold del. cbn [filter fst]. fold (del k l). destruct (N.eqb_spec k0 k) as [->|E]; cbn [negb]; rewrite ?has_cons, IH.
  - destruct (k =? k'); reflexivity.
  - destruct (N.eqb_spec k k') as [Ek|]; [|reflexivity]. subst k'. apply N.eqb_neq in E. now rewrite E.
Qed.

Lemma has_del_other {A} (l : list (N * A)) k k' : k <> k' -> has (del k l) k' = has l k'.
Proof. intro H. apply N.eqb_neq in H. now rewrite has_del, H. Qed.

Lemma del_length {A} (l : list (N * A)) k : (length (del k l) <= length l)%nat.
Proof. unfold del. induction l as [|a l IH]; cbn [filter length]; [lia|]. destruct (negb (fst a =? k)); cbn [length]; lia. Qed.

Lemma del_length_lt {A} (l : list (N * A)) k : has l k = true -> (length (del k l) < length l)%nat.
Proof.
  induction l as [|[k0 v] l IH]; [discriminate|].
  rewrite has_cons. unfold del. cbn [filter fst]. fold (del k l). pose proof (del_length l k) as L.
  destruct (k0 =? k); cbn [negb orb length]; [lia|]. intro H. specialize (IH H). lia.
Qed.

Lemma mem_in k l : mem k l = true <-> In k l.
Proof.
  unfold mem. rewrite existsb_exists. split.
  - intros [x [Hx He]]. apply N.eqb_eq in He. now subst.
  - intro H. exists k. split; [exact H|apply N.eqb_refl].
Qed.

Lemma root_eqb_eq a b : root_eqb a b = true <-> a = b.
Proof. destruct a, b; cbn; rewrite ?N.eqb_eq; split; intro H; try discriminate; congruence. Qed.

Lemma mem_root_in r l : mem_root r l = true <-> In r l.
Proof.
  unfold mem_root. rewrite existsb_exists. split.
  - intros [x [Hx He]]. apply root_eqb_eq in He. now subst.
  - intro H. exists r. split; [exact H|now apply root_eqb_eq].
Qed.

Definition keys_le {A} (l l' : list (N * A)) : Prop := forall k, has l k = true -> has l' k = true.
Lemma keys_le_refl {A} (l : list (N * A)) : keys_le l l. Proof. intros k H; exact H. Qed.
Lemma keys_le_cons {A} (l : list (N * A)) k v : keys_le l ((k, v) :: l).
Proof. intros k' H. rewrite has_cons, H. apply orb_true_r. Qed.
Lemma keys_le_trans {A} (a b c : list (N * A)) : keys_le a b -> keys_le b c -> keys_le a c.
Proof. intros H1 H2 k H. apply H2, H1, H. Qed.
Lemma keys_le_del {A} (l : list (N * A)) k : keys_le (del k l) l.
Proof. intros k' H. rewrite has_del in H. apply andb_true_iff in H. apply H. Qed.
Lemma keys_le_false {A} (l l' : list (N * A)) k : keys_le l l' -> has l' k = false -> has l k = false.
Proof. intros H H'. destruct (has l k) eqn:E; [|reflexivity]. apply H in E. congruence. Qed.

Section RetryThm.
  Context {St It : Type}.
  Variable try : St -> It -> St * option N.
  Variable is_final : N -> bool.

  (* where a round puts item y after an attempt with outcome o: a failure with category c goes to the list of final errors
     (b = true) or to the retry list (b = false), whichever is_final c says; a success goes nowhere *)
  Definition placed (y : It) (o : option N) (b : bool) : list (It * N) :=
    match o with Some c => if Bool.eqb (is_final c) b then [(y, c)] else [] | None => [] end.

  Lemma in_placed y o b x c : In (x, c) (placed y o b) <-> x = y /\ o = Some c /\ is_final c = b.
  Proof.
    unfold placed. destruct o as [c'|]; [destruct (Bool.eqb_spec (is_final c') b) as [E|E]|]; cbn.
    - split; [intros [H|[]]; injection H as <- <-; auto|intros (-> & H & _); injection H as ->; now left].
    - split; [intros []|intros (_ & H & F); injection H as ->; contradiction].
    - split; [intros []|intros (_ & H & _); discriminate].
  Qed.

  Lemma round_cons s y t :
    let r' := round try is_final (fst (try s y)) t in
    let r := round try is_final s (y :: t) in
    r_st r = r_st r' /\ r_retry r = placed y (snd (try s y)) false ++ r_retry r' /\
    r_final r = placed y (snd (try s y)) true ++ r_final r' /\
    r_prog r = match snd (try s y) with None => true | Some _ => r_prog r' end.
  Proof. cbn zeta. cbn [round]. destruct (try s y) as [s' [c|]]; unfold placed; cbn [fst snd]; [destruct (is_final c)|]; repeat split. Qed.

  Lemma round_len s todo :
    (length (r_retry (round try is_final s todo)) <= length todo)%nat /\
    (r_prog (round try is_final s todo) = true -> length (r_retry (round try is_final s todo)) < length todo)%nat.
  Proof.
    revert s. induction todo as [|y t IH]; intro s; [cbn; split; [lia|discriminate]|].
    destruct (round_cons s y t) as (_ & E2 & _ & E4). rewrite E2, E4, app_length. destruct (IH (fst (try s y))) as [I1 I2].
    unfold placed. destruct (snd (try s y)) as [c|]; [destruct (Bool.eqb (is_final c) false)|]; cbn [length];
      split; intros; try specialize (I2 H); lia.
  Qed.

  Lemma loop_fuel : forall f1 f2 s todo fin, (length todo < f1)%nat -> (length todo < f2)%nat ->
    loop try is_final f1 s todo fin = loop try is_final f2 s todo fin.
  Proof.
    induction f1 as [|f1 IH]; intros f2 s todo fin H1 H2; [lia|].
    destruct f2 as [|f2]; [lia|]. cbn [loop].
    destruct (r_prog (round try is_final s todo)) eqn:E; [|reflexivity].
    pose proof (round_len s todo) as [_ L]. specialize (L E).
    apply IH; rewrite map_length; lia.
  Qed.

  Lemma loop_exit : forall f s todo fin, (length todo < f)%nat -> r_prog (loop try is_final f s todo fin) = false.
  Proof.
    induction f as [|f IH]; intros s todo fin H; [lia|]. cbn [loop].
    destruct (r_prog (round try is_final s todo)) eqn:E; [|reflexivity].
    pose proof (round_len s todo) as [_ L]. specialize (L E). apply IH. rewrite map_length. lia.
  Qed.

  (* s' is reached from s by attempts, each on an item and with an outcome that A allows *)
  Inductive attempts (A : It -> option N -> Prop) : St -> St -> Prop :=
  | att_nil s : attempts A s s
  | att_cons s x s1 o s2 : A x o -> try s x = (s1, o) -> attempts A s1 s2 -> attempts A s s2.

  Definition succeeded (A : It -> option N -> Prop) (s s' : St) (x : It) : Prop :=
    exists s0 s1, attempts A s s0 /\ try s0 x = (s1, None) /\ attempts A s1 s'.

  Lemma attempts_preserve (A : It -> option N -> Prop) (P : St -> Prop) :
    (forall s x s' o, A x o -> try s x = (s', o) -> P s -> P s') -> forall s s', attempts A s s' -> P s -> P s'.
  Proof. intros step s s' H. induction H; eauto. Qed.

  Lemma attempts_trans (A : It -> option N -> Prop) s1 s2 s3 : attempts A s1 s2 -> attempts A s2 s3 -> attempts A s1 s3.
  Proof. intros H1 H2. induction H1; [exact H2|econstructor; eauto]. Qed.

  Lemma succeeded_wider (A : It -> option N -> Prop) s0 s s' s1 x :
    attempts A s0 s -> succeeded A s s' x -> attempts A s' s1 -> succeeded A s0 s1 x.
  Proof.
    intros H0 (a & b & H1 & E & H2) H3. exists a, b.
    split; [exact (attempts_trans _ _ _ _ H0 H1)|]. split; [exact E|exact (attempts_trans _ _ _ _ H2 H3)].
  Qed.

  Lemma round_spec (A : It -> option N -> Prop) : forall todo s, (forall x o, In x todo -> A x o) ->
    let r := round try is_final s todo in
    attempts A s (r_st r) /\
    (forall x, In x todo ->
       succeeded A s (r_st r) x \/ (exists c, In (x, c) (r_retry r)) \/ (exists c, In (x, c) (r_final r))) /\
    (forall x c, In (x, c) (r_retry r) -> In x todo) /\
    (forall x c, In (x, c) (r_final r) -> In x todo /\ is_final c = true /\ exists s0, snd (try s0 x) = Some c).
  Proof.
    induction todo as [|y t IH]; intros s HA; cbn zeta; [cbn; split; [constructor|]; repeat split; intros; contradiction|].
    destruct (round_cons s y t) as (E1 & E2 & E3 & _). rewrite E1, E2, E3. clear E1 E2 E3.
    destruct (try s y) as [s' o] eqn:E. cbn [fst snd].
    specialize (IH s' (fun x o Hx => HA x o (or_intror Hx))). cbn zeta in IH. revert IH.
    generalize (round try is_final s' t) as r'. intros r' (I1 & I2 & I3 & I4).
    assert (Ay : In y (y :: t)) by now left.
    pose proof (att_cons A _ _ _ _ _ (HA y o Ay) E (att_nil _ s')) as T0.
    split; [exact (attempts_trans _ _ _ _ T0 I1)|]. split; [|split].
    - intros x [<-|Hx].
      + destruct o as [c|]; [right|left; exists s, s'; split; [constructor|]; split; [exact E|exact I1]].
        destruct (is_final c) eqn:F; [right|left]; exists c; apply in_or_app; left; apply in_placed; auto.
      + destruct (I2 x Hx) as [H|[[c H]|[c H]]].
        * left. eapply succeeded_wider; [exact T0|exact H|constructor].
        * right. left. exists c. apply in_or_app. now right.
        * right. right. exists c. apply in_or_app. now right.
    - intros x c H. apply in_app_or in H. destruct H as [H|H]; [apply in_placed in H; destruct H as [-> _]; exact Ay|right; eauto].
    - intros x c H. apply in_app_or in H. destruct H as [H|H].
      + apply in_placed in H. destruct H as (-> & -> & F). split; [exact Ay|]. split; [exact F|]. exists s. now rewrite E.
      + destruct (I4 x c H) as [H1 H2]. split; [now right|exact H2].
  Qed.

  Lemma round_stuck : forall todo s, r_prog (round try is_final s todo) = false ->
    attempts (fun _ o => o <> None) s (r_st (round try is_final s todo)) /\
    forall x c, In (x, c) (r_retry (round try is_final s todo)) ->
      exists s0, snd (try s0 x) = Some c /\ attempts (fun _ o => o <> None) s0 (r_st (round try is_final s todo)).
  Proof.
    induction todo as [|y t IH]; intros s; [cbn; split; [constructor|intros x c []]|].
    destruct (round_cons s y t) as (E1 & E2 & _ & E4). rewrite E1, E2, E4. clear E1 E2 E4.
    destruct (try s y) as [s' [c|]] eqn:E; cbn [fst snd]; [|discriminate]. intro Hp. destruct (IH s' Hp) as [I1 I2].
    assert (T1 : attempts (fun _ o => o <> None) s (r_st (round try is_final s' t)))
      by (apply att_cons with y s' (Some c); [discriminate|exact E|exact I1]).
    split; [exact T1|]. intros x c' H. apply in_app_or in H. destruct H as [H|H]; [|now apply I2].
    apply in_placed in H. destruct H as (-> & H & _). injection H as ->. exists s. split; [now rewrite E|exact T1].
  Qed.

  Lemma loop_spec (A : It -> option N -> Prop) : forall f todo s fin, (length todo < f)%nat -> (forall x o, In x todo -> A x o) ->
    let r := loop try is_final f s todo fin in
    attempts A s (r_st r) /\
    (forall x, In x todo ->
       succeeded A s (r_st r) x \/ (exists c, In (x, c) (r_retry r)) \/ (exists c, In (x, c) (r_final r))) /\
    (forall x c, In (x, c) (r_retry r) ->
       In x todo /\ exists s0, snd (try s0 x) = Some c /\ attempts (fun _ o => o <> None) s0 (r_st r)) /\
    (forall x c, In (x, c) fin -> In (x, c) (r_final r)) /\
    (forall x c, In (x, c) (r_final r) ->
       In (x, c) fin \/ In x todo /\ is_final c = true /\ exists s0, snd (try s0 x) = Some c).
  Proof.
    induction f as [|f IH]; intros todo s fin Hf HA; [lia|]. cbn zeta. cbn [loop].
    pose proof (round_spec A todo s HA) as R. cbn zeta in R. pose proof (round_len s todo) as [_ L].
    pose proof (round_stuck todo s) as S.
    revert R L S. generalize (round try is_final s todo) as rd. intros rd (R1 & R2 & R3 & R4) L S.
    destruct (r_prog rd) eqn:E.
    - assert (Hsub : forall x, In x (map fst (r_retry rd)) -> In x todo).
      { intros x Hx. apply in_map_iff in Hx. destruct Hx as [[x' c] [<- Hx]]. exact (R3 _ _ Hx). }
      specialize (IH (map fst (r_retry rd)) (r_st rd) (fin ++ r_final rd)). cbn zeta in IH.
      destruct IH as (J1 & J2 & J3 & J4 & J5); [rewrite map_length; specialize (L eq_refl); lia|intros x o Hx; exact (HA x o (Hsub x Hx))|].
      split; [exact (attempts_trans _ _ _ _ R1 J1)|]. split; [|split; [|split]].
      + intros x Hx. destruct (R2 x Hx) as [H|[[c H]|[c H]]].
        * left. eapply succeeded_wider; [constructor|exact H|exact J1].
        * destruct (J2 x) as [H'|H']; [apply in_map_iff; exists (x, c); split; [reflexivity|exact H]| |right; exact H'].
          left. eapply succeeded_wider; [exact R1|exact H'|constructor].
        * right. right. exists c. apply J4. apply in_or_app. now right.
      + intros x c Hx. destruct (J3 x c Hx) as [H1 H2]. split; [exact (Hsub x H1)|exact H2].
      + intros x c Hx. apply J4. apply in_or_app. now left.
      + intros x c Hx. destruct (J5 x c Hx) as [H|[H1 H2]]; [|right; split; [exact (Hsub x H1)|exact H2]].
        apply in_app_or in H. destruct H as [H|H]; [now left|right; exact (R4 x c H)].
    - cbn [r_st r_retry r_final]. destruct (S eq_refl) as [_ S2].
      split; [exact R1|]. split; [|split; [|split]].
      + intros x Hx. destruct (R2 x Hx) as [H|[H|[c H]]]; [now left|now (right; left)|].
        right. right. exists c. apply in_or_app. now right.
      + intros x c Hx. split; [exact (R3 x c Hx)|exact (S2 x c Hx)].
      + intros x c Hx. apply in_or_app. now left.
      + intros x c Hx. apply in_app_or in Hx. destruct Hx as [H|H]; [now left|right; exact (R4 x c H)].
  Qed.

  Definition run_loop_spec s todo :=
    loop_spec (fun x _ => In x todo) (S (length todo)) todo s [] (Nat.lt_succ_diag_r _) (fun x _ Hx => Hx).

  Lemma run_loop_inv (P : St -> Prop) s todo :
    (forall s x s' o, In x todo -> try s x = (s', o) -> P s -> P s') -> P s -> P (r_st (run_loop try is_final s todo)).
  Proof.
    intro step. destruct (run_loop_spec s todo) as [H _]. exact (attempts_preserve _ P step _ _ H).
  Qed.

  (* Q x: "x is done", established by a successful attempt on x and never lost *)
  Lemma run_loop_account (P : St -> Prop) (Q : It -> St -> Prop) s todo :
    (forall s x s' o, In x todo -> try s x = (s', o) -> P s -> P s') ->
    (forall x s y s' o, In y todo -> try s y = (s', o) -> Q x s -> Q x s') ->
    (forall s x s', In x todo -> try s x = (s', None) -> P s -> Q x s') ->
    P s -> forall x, In x todo ->
    Q x (r_st (run_loop try is_final s todo)) \/ (exists c, In (x, c) (r_retry (run_loop try is_final s todo))) \/
    (exists c, In (x, c) (r_final (run_loop try is_final s todo))).
  Proof.
    intros Pstep Qstep Qsucc HP x Hx. destruct (run_loop_spec s todo) as (_ & H & _).
    destruct (H x Hx) as [(s0 & s1 & H1 & E & H2)|H']; [left|right; exact H'].
    apply (attempts_preserve _ (Q x) (Qstep x) _ _ H2). apply (Qsucc _ _ _ Hx E). exact (attempts_preserve _ P Pstep _ _ H1 HP).
  Qed.

  Lemma run_loop_retry s todo x c : In (x, c) (r_retry (run_loop try is_final s todo)) ->
    In x todo /\ exists s0, snd (try s0 x) = Some c /\ attempts (fun _ o => o <> None) s0 (r_st (run_loop try is_final s todo)).
  Proof. destruct (run_loop_spec s todo) as (_ & _ & H & _). apply H. Qed.

  Lemma run_loop_final s todo x c : In (x, c) (r_final (run_loop try is_final s todo)) ->
    In x todo /\ is_final c = true /\ exists s0, snd (try s0 x) = Some c.
  Proof.
    destruct (run_loop_spec s todo) as (_ & _ & _ & _ & H). intro Hx. now destruct (H x c Hx) as [[]|].
  Qed.
End RetryThm.

(* ext s s': s' knows at least what s knows *)
Definition ext (s s' : st) : Prop :=
  keys_le (s_cbr s) (s_cbr s') /\ keys_le (s_cbn s) (s_cbn s') /\ incl (s_deps s) (s_deps s') /\ incl (s_queue s) (s_queue s').
Lemma ext_refl s : ext s s.
Proof. repeat split; try apply keys_le_refl; apply incl_refl. Qed.
Lemma ext_trans a b c : ext a b -> ext b c -> ext a c.
Proof.
  intros (A1 & A2 & A3 & A4) (B1 & B2 & B3 & B4).
  repeat split; [eapply keys_le_trans|eapply keys_le_trans|eapply incl_tran|eapply incl_tran]; eauto.
Qed.

Definition frame (s s' : st) : Prop := s_cbr s' = s_cbr s /\ s_done s' = s_done s /\ ext s s'.
Lemma frame_refl s : frame s s.
Proof. split; [reflexivity|]. split; [reflexivity|apply ext_refl]. Qed.
Lemma frame_trans a b c : frame a b -> frame b c -> frame a c.
Proof. intros (A1 & A2 & A3) (B1 & B2 & B3). split; [congruence|]. split; [congruence|eapply ext_trans; eauto]. Qed.

Inductive op_ok (cx : ctx) (s : st) : op -> st -> Prop :=
| ok_need k t rs nm rc pl : lookup (s_cbr s) t = Some pl ->
    op_ok cx s (ONeed k t rs nm rc)
      (mkSt (s_cbr s) (s_cbn s) (add_deps (s_deps s) t rs)
            (s_queue s ++ match k, pl with EWrapper, PModel e => [mkQ (wrap_owner cx) nm e] | _, _ => [] end) (s_done s))
| ok_allof t rs rc e : lookup (s_cbr s) t = Some (PModel e) -> mem t (s_done s) = true ->
    op_ok cx s (OAllOf t rs rc) (mkSt (s_cbr s) (s_cbn s) (add_deps (s_deps s) t rs) (s_queue s) (s_done s))
| ok_dep r c : op_ok cx s (ODep r c) (mkSt (s_cbr s) (s_cbn s) (add_deps (s_deps s) r [RCls c]) (s_queue s) (s_done s))
| ok_model c q : has (s_cbn s) c = false ->
    op_ok cx s (OMintModel c q) (mkSt (s_cbr s) ((c, CModel) :: s_cbn s) (s_deps s) (s_queue s ++ push_entry cx q) (s_done s))
| ok_enum c v : lookup (s_cbn s) c = None ->
    op_ok cx s (OMintEnum c v) (mkSt (s_cbr s) ((c, CEnum v) :: s_cbn s) (s_deps s) (s_queue s) (s_done s))
| ok_enum_again c v : lookup (s_cbn s) c = Some (CEnum v) -> op_ok cx s (OMintEnum c v) s.

(* of the two class-name instructions only the category is kept: whether they fail depends on the names minted earlier in the
   same list, which a failed attempt takes back *)
Inductive op_err (s : st) : op -> N -> Prop :=
| err_fail c : op_err s (OFail c) c
| err_need k t rs nm rc : lookup (s_cbr s) t = None ->
    op_err s (ONeed k t rs nm rc) (if rc then cat_recursive else cat_ref_missing)
| err_allof_missing t rs rc : lookup (s_cbr s) t = None -> op_err s (OAllOf t rs rc) cat_allof_missing
| err_allof_nonobject t rs rc : lookup (s_cbr s) t = Some POther -> op_err s (OAllOf t rs rc) cat_allof_nonobject
| err_allof_unprocessed t rs rc e : lookup (s_cbr s) t = Some (PModel e) -> mem t (s_done s) = false ->
    op_err s (OAllOf t rs rc) (if rc then cat_recursive else cat_allof_unprocessed)
| err_dup c q : op_err s (OMintModel c q) cat_dup
| err_enum c v : op_err s (OMintEnum c v) cat_enum_conflict.

Lemma exec_op_spec cx s o :
  match exec_op cx s o with (s', None) => op_ok cx s o s' | (s', Some c) => s' = s /\ op_err s o c end.
Proof.
  destruct o; cbn [exec_op].
  - split; [reflexivity|constructor].
  - destruct (lookup (s_cbr s) t) eqn:L; [now constructor|split; [reflexivity|now constructor]].
  - destruct (lookup (s_cbr s) t) as [[e|]|] eqn:L.
    + destruct (mem t (s_done s)) eqn:M; [now apply ok_allof with e|]. split; [reflexivity|now apply err_allof_unprocessed with e].
    + split; [reflexivity|now constructor].
    + split; [reflexivity|now constructor].
  - constructor.
  - destruct (has (s_cbn s) c) eqn:H; [split; [reflexivity|constructor]|now constructor].
  - destruct (lookup (s_cbn s) c) as [[|v']|] eqn:L; [split; [reflexivity|constructor]| |now constructor].
    destruct (N.eqb_spec v' v) as [->|]; [now constructor|split; [reflexivity|constructor]].
Qed.

Lemma op_ok_frame cx s o s' : op_ok cx s o s' -> frame s s'.
Proof.
  intro H. destruct H; repeat split; cbn; unfold add_deps; auto using keys_le_refl, keys_le_cons, incl_refl, incl_appl, incl_appr, incl_tl.
Qed.

Lemma exec_op_ext cx o s s' r : exec_op cx s o = (s', r) -> ext s s'.
Proof.
  intro H. pose proof (exec_op_spec cx s o) as E. rewrite H in E. destruct r; [destruct E as [-> _]; apply ext_refl|].
  now destruct (op_ok_frame _ _ _ _ E) as (_ & _ & X).
Qed.

Lemma exec_invariant cx (I : st -> Prop) : forall p,
  (forall i s s', In i p -> op_ok cx s (i_op i) s' -> I s -> I s') ->
  forall s s' r, exec cx s p = (s', r) -> I s -> I s'.
Proof.
  induction p as [|i p IH]; intros step s s' r H HI; cbn [exec] in H; [now injection H as <- _|].
  pose proof (exec_op_spec cx s (i_op i)) as E. destruct (exec_op cx s (i_op i)) as [s1 [c|]].
  - destruct E as [-> _]. now injection H as <- _.
  - eapply IH; [|exact H|eapply step; eauto; now left]. intros j sa sb Hj. apply step. now right.
Qed.

Lemma exec_frame cx p s s' r : exec cx s p = (s', r) -> frame s s'.
Proof.
  intro H. apply (exec_invariant cx (frame s) p) with (s := s) (r := r); [|exact H|apply frame_refl].
  intros i sa sb _ Ho Hf. exact (frame_trans _ _ _ Hf (op_ok_frame _ _ _ _ Ho)).
Qed.

Definition report (i : instr) (c0 : N) : N := if (i_ovr i =? 0) || (c0 =? cat_recursive) then c0 else i_ovr i.

Lemma exec_run cx : forall p s s' r, exec cx s p = (s', r) ->
  match r with
  | None => forall i, In i p -> exists si si', frame s si /\ op_ok cx si (i_op i) si' /\ frame si' s'
  | Some c => exists i c0, In i p /\ op_err s' (i_op i) c0 /\ c = report i c0
  end.
Proof.
  induction p as [|i p IH]; intros s s' r H; cbn [exec] in H; [injection H as <- <-; intros i []|].
  pose proof (exec_op_spec cx s (i_op i)) as E. destruct (exec_op cx s (i_op i)) as [s1 [c|]].
  - destruct E as [-> E]. injection H as <- <-. exists i, c. split; [now left|auto].
  - pose proof (op_ok_frame _ _ _ _ E) as F. specialize (IH _ _ _ H). destruct r as [c|].
    + destruct IH as (j & c0 & Hj & He). exists j, c0. split; [now right|exact He].
    + intros j [<-|Hj].
      * exists s, s1. split; [apply frame_refl|]. split; [exact E|exact (exec_frame _ _ _ _ _ H)].
      * destruct (IH j Hj) as (si & si' & A & B). exists si, si'. split; [exact (frame_trans _ _ _ F A)|exact B].
Qed.

(* what a list of instructions has established once it has run to the end *)
Definition prog_done (ents : list entry) (p : list instr) (s : st) : Prop :=
  (forall k t rs, In (k, t, rs) (prog_edges p) -> has (s_cbr s) t = true /\ forall x, In x rs -> In (t, x) (s_deps s)) /\
  (forall c, In c (prog_mints p) -> has (s_cbn s) c = true) /\
  (forall i c k e, In i p -> i_op i = OMintModel c (Some k) -> nth_error ents k = Some e ->
                   exists ow, In (mkQ ow (e_name e) e) (s_queue s)) /\
  (forall i r c, In i p -> i_op i = ODep r c -> In (r, RCls c) (s_deps s)).

Lemma prog_done_intro ents p s : (forall i, In i p -> prog_done ents [i] s) -> prog_done ents p s.
Proof.
  intro H. split; [|split; [|split]].
  - intros k t rs He. apply in_flat_map in He. destruct He as [i [Hi He]]. apply (proj1 (H i Hi) k). apply in_or_app. now left.
  - intros c Hc. apply in_flat_map in Hc. destruct Hc as [i [Hi Hc]]. apply (proj1 (proj2 (H i Hi))). apply in_or_app. now left.
  - intros i c k e Hi. apply (proj1 (proj2 (proj2 (H i Hi))) i). now left.
  - intros i r c Hi. apply (proj2 (proj2 (proj2 (H i Hi))) i). now left.
Qed.

Lemma prog_done_ext ents p s s' : ext s s' -> prog_done ents p s -> prog_done ents p s'.
Proof.
  intros (X1 & X2 & X3 & X4) (D1 & D2 & D3 & D4). split; [|split; [|split]].
  - intros k t rs He. destruct (D1 _ _ _ He) as [A B]. auto.
  - auto.
  - intros i c k e Hi Ho Hn. destruct (D3 i c k e Hi Ho Hn) as [ow H]. eauto.
  - eauto.
Qed.

Lemma in_add_deps D t rs x : In x rs -> In (t, x) (add_deps D t rs).
Proof. intro H. apply in_or_app. left. now apply in_map. Qed.

Lemma op_ok_done cx s i s' : op_ok cx s (i_op i) s' -> prog_done (c_ents cx) [i] s'.
Proof.
  intro H. remember (i_op i) as o eqn:Eo. unfold prog_done, prog_edges, prog_mints. cbn [flat_map]. rewrite !app_nil_r, <- Eo.
  (* the clauses that name an instruction: it is i, and most constructors are not the operation asked for *)
  destruct H; (split; [|split; [|split]]); cbn [op_edge op_mints s_cbr s_cbn s_deps s_queue];
    try (intros; contradiction);
    try (intros i0 ? ? ? [<-|[]] E; rewrite <- Eo in E; discriminate);
    try (intros i0 ? ? [<-|[]] E; rewrite <- Eo in E; discriminate).
  1-2: intros k' t' rs' [E|[]]; injection E as <- <- <-; split; [apply has_lookup; eauto|intro x; apply in_add_deps].
  - intros i0 r' c' [<-|[]] E. rewrite <- Eo in E. injection E as <- <-. now left.
  - intros c' [<-|[]]. now rewrite has_cons, N.eqb_refl.
  - intros i0 c' k e [<-|[]] E Hn. rewrite <- Eo in E. injection E as <- ->.
    unfold push_entry. rewrite Hn. eexists. apply in_or_app. right. now left.
  - intros c' [<-|[]]. now rewrite has_cons, N.eqb_refl.
  - intros c' [<-|[]]. apply has_lookup. eauto.
Qed.

Lemma exec_done cx p s s' : exec cx s p = (s', None) -> prog_done (c_ents cx) p s'.
Proof.
  intro H. apply prog_done_intro. intros i Hi. destruct (exec_run _ _ _ _ _ H i Hi) as (si & si' & _ & Ho & _ & _ & X).
  exact (prog_done_ext _ _ _ _ X (op_ok_done _ _ _ _ Ho)).
Qed.

(* process_model runs without a component: it looks up no entries *)
Lemma prog_done_drop_ents ents p s : prog_done ents p s -> prog_done [] p s.
Proof.
  intros (D1 & D2 & D3 & D4). split; [exact D1|]. split; [exact D2|]. split; [|exact D4].
  intros i c k e _ _ Hn. destruct k; discriminate.
Qed.

Definition handled (x : root) (cbr : list (ref * payload)) (cbn : list (cls * cinfo)) : Prop :=
  match x with RRef r => has cbr r = false | RCls c => has cbn c = false end.

Lemma handled_le x cbr cbn cbr' cbn' : keys_le cbr' cbr -> keys_le cbn' cbn -> handled x cbr cbn -> handled x cbr' cbn'.
Proof. intros H1 H2. destruct x; cbn; apply keys_le_false; assumption. Qed.

Lemma in_children D r x : In x (children D r) <-> In (r, x) D.
Proof.
  unfold children. rewrite in_map_iff. split.
  - intros [[r' x'] [E H]]. cbn in E. subst x'. apply filter_In in H. destruct H as [H1 H2]. cbn in H2. apply N.eqb_eq in H2. now subst.
  - intro H. exists (r, x). split; [reflexivity|]. apply filter_In. split; [exact H|]. cbn. apply N.eqb_refl.
Qed.

Lemma children_length D r : (length (children D r) <= length D)%nat.
Proof.
  unfold children. rewrite map_length. induction D as [|a D IH]; [cbn; lia|].
  cbn [filter]. destruct (_ =? r); cbn [length] in *; lia.
Qed.

(* decreases with every step: expanding a present reference adds at most |D| roots and deletes one entry *)
Definition pot (D : list (ref * root)) (work : list root) (cbr : list (ref * payload)) : nat :=
  (length work + length cbr * S (length D))%nat.

Lemma pot_skip D x w cbr : pot D (x :: w) cbr = S (pot D w cbr).
Proof. reflexivity. Qed.

Lemma pot_expand D r w cbr : has cbr r = true -> (pot D (children D r ++ w) (del r cbr) < pot D (RRef r :: w) cbr)%nat.
Proof.
  intro E. unfold pot. rewrite app_length. cbn [length].
  pose proof (del_length_lt cbr r E) as L1. pose proof (children_length D r) as L2.
  assert (length (del r cbr) * S (length D) + S (length D) <= length cbr * S (length D))%nat.
  { replace (length (del r cbr) * S (length D) + S (length D))%nat with (S (length (del r cbr)) * S (length D))%nat by lia.
    apply Nat.mul_le_mono_r. exact L1. }
  (* lia takes `list (ref * payload)` and `list (N * payload)` for different atoms *)
  unfold ref, cls in *. lia.
Qed.

Lemma remove_fuel_pot D work cbr : remove_fuel D work cbr = S (pot D work cbr).
Proof. reflexivity. Qed.

Lemma remove_wl_fuel D : forall f1 f2 work cbr cbn acc, (pot D work cbr < f1)%nat -> (pot D work cbr < f2)%nat ->
  remove_wl f1 D work cbr cbn acc = remove_wl f2 D work cbr cbn acc.
Proof.
  induction f1 as [|f1 IH]; intros f2 work cbr cbn acc H1 H2; [lia|].
  destruct f2 as [|f2]; [lia|]. cbn [remove_wl].
  destruct work as [|[r|c] w]; [reflexivity| |]; rewrite pot_skip in H1, H2.
  - destruct (has cbr r) eqn:E; [pose proof (pot_expand D r w cbr E) as L; rewrite pot_skip in L|]; apply IH; lia.
  - apply IH; lia.
Qed.

(* the clauses of removal_facts below, for one cascade *)
Lemma remove_wl_spec D : forall fuel work cbr cbn acc cbr' cbn' acc',
  (pot D work cbr < fuel)%nat ->
  remove_wl fuel D work cbr cbn acc = (cbr', cbn', acc') ->
  keys_le cbr' cbr /\ keys_le cbn' cbn /\
  (forall x, In x work -> handled x cbr' cbn') /\
  (forall r, has cbr r = true -> has cbr' r = false -> In r acc' /\ forall x, In (r, x) D -> handled x cbr' cbn') /\
  (forall r, In r acc -> In r acc') /\
  (forall c, has cbn c = true -> has cbn' c = false ->
             In (RCls c) work \/ exists r, has cbr r = true /\ has cbr' r = false /\ In (r, RCls c) D).
Proof.
  induction fuel as [|fuel IH]; intros work cbr cbn acc cbr' cbn' acc' Hf H; [lia|].
  cbn [remove_wl] in H. destruct work as [|[r|c] w]; [|rewrite pot_skip in Hf..].
  - injection H as <- <- <-. repeat split; try apply keys_le_refl; try (intros; contradiction); try congruence; auto.
  - destruct (has cbr r) eqn:E.
    + pose proof (pot_expand D r w cbr E) as L. rewrite pot_skip in L. apply IH in H; [|lia].
      destruct H as (I1 & I2 & I3 & I4 & I5 & I6).
      assert (Hr : has cbr' r = false) by (apply (keys_le_false _ _ _ I1); now rewrite has_del, N.eqb_refl).
      split; [exact (keys_le_trans _ _ _ I1 (keys_le_del _ _))|]. split; [exact I2|]. split; [|split; [|split]].
      * intros x [<-|Hx]; [exact Hr|apply I3; apply in_or_app; now right].
      * intros r0 H0 H1. destruct (N.eq_dec r r0) as [<-|Hne].
        -- split; [apply I5; apply in_or_app; right; now left|].
           intros x Hx. apply I3. apply in_or_app. left. now apply in_children.
        -- apply I4; [now rewrite has_del_other|exact H1].
      * intros r0 H0. apply I5. apply in_or_app. now left.
      * intros c Hc1 Hc2. destruct (I6 c Hc1 Hc2) as [H1|[r0 (H1 & H2 & H3)]].
        -- apply in_app_or in H1. destruct H1 as [H1|H1]; [|left; now right].
           right. exists r. split; [exact E|]. split; [exact Hr|now apply in_children].
        -- right. exists r0. split; [exact (keys_le_del _ _ _ H1)|]. split; assumption.
    + apply IH in H; [|lia]. destruct H as (I1 & I2 & I3 & I4 & I5 & I6).
      split; [exact I1|]. split; [exact I2|]. split; [|split; [|split]]; auto.
      * intros x [<-|Hx]; [exact (keys_le_false _ _ _ I1 E)|now apply I3].
      * intros c Hc1 Hc2. destruct (I6 c Hc1 Hc2) as [H1|H1]; [left; now right|now right].
  - apply IH in H; [|lia]. destruct H as (I1 & I2 & I3 & I4 & I5 & I6).
    split; [exact I1|]. split; [exact (keys_le_trans _ _ _ I2 (keys_le_del _ _))|]. split; [|split; [|split]]; auto.
    + intros x [<-|Hx]; [|now apply I3]. apply (keys_le_false _ _ _ I2). now rewrite has_del, N.eqb_refl.
    + intros c0 Hc1 Hc2. destruct (N.eq_dec c c0) as [<-|Hne]; [left; now left|].
      destruct (I6 c0) as [H1|H1]; [now rewrite has_del_other|exact Hc2|left; now right|now right].
Qed.

(* what _process_model_errors leaves: only deletions; the roots of the failed models and the recorded dependants of deleted
   references are gone; a deleted reference is in a removal list; every failed model has its diagnostic; a deleted class name
   was a root of a failed model or a dependant of a deleted reference *)
Definition removal_facts (D : list (ref * root)) (mes : list (qitem * N)) (cbr : list (ref * payload)) (cbn : list (cls * cinfo))
           (cbrF : list (ref * payload)) (cbnF : list (cls * cinfo)) (es : list err) : Prop :=
  keys_le cbrF cbr /\ keys_le cbnF cbn /\
  (forall q c x, In (q, c) mes -> In x (e_roots (q_entry q)) -> handled x cbrF cbnF) /\
  (forall r, has cbr r = true -> has cbrF r = false ->
             (exists e, In e es /\ In r (er_removed e)) /\ forall x, In (r, x) D -> handled x cbrF cbnF) /\
  (forall q c, In (q, c) mes -> exists e, In e es /\ er_create e = false /\ er_unit e = q_name q /\ er_cat e = c /\
                                          er_roots e = e_roots (q_entry q)) /\
  (forall c, has cbn c = true -> has cbnF c = false ->
             (exists q cat, In (q, cat) mes /\ In (RCls c) (e_roots (q_entry q))) \/
             exists r, has cbr r = true /\ has cbrF r = false /\ In (r, RCls c) D).

Lemma model_errors_spec D : forall mes cbr cbn cbrF cbnF es,
  model_errors D mes cbr cbn = (cbrF, cbnF, es) -> removal_facts D mes cbr cbn cbrF cbnF es.
Proof.
  induction mes as [|[q c] mes IH]; intros cbr cbn cbrF cbnF es H; cbn [model_errors] in H.
  - injection H as <- <- <-. repeat split; try apply keys_le_refl; try (intros; contradiction); try congruence.
  - destruct (remove_roots D (e_roots (q_entry q)) cbr cbn) as [[cbr1 cbn1] acc] eqn:R.
    destruct (model_errors D mes cbr1 cbn1) as [[cbr2 cbn2] es2] eqn:M. injection H as <- <- <-.
    apply remove_wl_spec in R; [|rewrite remove_fuel_pot; apply Nat.lt_succ_diag_r]. destruct R as (R1 & R2 & R3 & R4 & _ & R6).
    destruct (IH _ _ _ _ _ M) as (I1 & I2 & I3 & I4 & I5 & I6).
    split; [exact (keys_le_trans _ _ _ I1 R1)|]. split; [exact (keys_le_trans _ _ _ I2 R2)|]. split; [|split; [|split]].
    + intros q0 c0 x [E|Hin] Hx; [|eapply I3; eauto].
      injection E as <- <-. exact (handled_le _ _ _ _ _ I1 I2 (R3 _ Hx)).
    + intros r Hr1 Hr2. destruct (has cbr1 r) eqn:E1.
      * destruct (I4 r E1 Hr2) as [[e [He1 He2]] Hc]. split; [exists e; split; [now right|exact He2]|exact Hc].
      * destruct (R4 r Hr1 E1) as [Ha Hc]. split; [eexists; split; [now left|exact Ha]|].
        intros x Hx. exact (handled_le _ _ _ _ _ I1 I2 (Hc x Hx)).
    + intros q0 c0 [E|Hin].
      * injection E as <- <-. eexists. split; [now left|]. cbn. repeat split; reflexivity.
      * destruct (I5 q0 c0 Hin) as [e [He1 He2]]. exists e. split; [now right|exact He2].
    + intros c0 Hc1 Hc2. destruct (has cbn1 c0) eqn:E1.
      * destruct (I6 c0 E1 Hc2) as [[q0 [cat (A & B)]]|[r (A & B & C)]].
        -- left. exists q0, cat. split; [now right|exact B].
        -- right. exists r. split; [apply R1, A|]. split; assumption.
      * destruct (R6 c0 Hc1 E1) as [A|[r (A & B & C)]].
        -- left. exists q, c. split; [now left|exact A].
        -- right. exists r. split; [exact A|]. split; [exact (keys_le_false _ _ _ I1 B)|exact C].
Qed.

Lemma create_try_spec s n s' o : create_try s n = (s', o) ->
  exists s1, exec (ctx_of n) s (n_create n) = (s1, o) /\
    s' = match o with
         | Some _ => revert s s1
         | None => mkSt ((n_ref n, node_payload n s1) :: s_cbr s1) (s_cbn s1) (s_deps s1) (s_queue s1) (s_done s1)
         end.
Proof. unfold create_try. destruct (exec (ctx_of n) s (n_create n)) as [s1 [c|]]; intro H; injection H as <- <-; eauto. Qed.

Lemma proc_try_spec s q s' o : proc_try s q = (s', o) ->
  exists s1, exec ctx_proc s (e_prog (q_entry q)) = (s1, o) /\
    s' = match o with
         | Some _ => revert s s1
         | None => mkSt (s_cbr s1) (s_cbn s1) (s_deps s1) (s_queue s)
                        (match q_owner q with Some r => r :: s_done s1 | None => s_done s1 end)
         end.
Proof. unfold proc_try. destruct (exec ctx_proc s (e_prog (q_entry q))) as [s1 [c|]]; intro H; injection H as <- <-; eauto. Qed.

(* a failed attempt changes nothing that an attempt looks at (only `dependencies`) *)
Definition same_know (s s' : st) : Prop := (s_cbr s, s_cbn s, s_done s, s_queue s) = (s_cbr s', s_cbn s', s_done s', s_queue s').
Lemma create_try_fail s n s' c : create_try s n = (s', Some c) -> same_know s s'.
Proof. intro H. now destruct (create_try_spec _ _ _ _ H) as (s1 & _ & ->). Qed.
Lemma proc_try_fail s q s' c : proc_try s q = (s', Some c) -> same_know s s'.
Proof. intro H. now destruct (proc_try_spec _ _ _ _ H) as (s1 & _ & ->). Qed.

Lemma create_try_ext s n s' o : create_try s n = (s', o) -> ext s s'.
Proof.
  intro H. destruct (create_try_spec _ _ _ _ H) as (s1 & E & ->). destruct (exec_frame _ _ _ _ _ E) as (_ & _ & X1 & X2 & X3 & X4).
  destruct o; repeat split; cbn; auto using keys_le_refl, incl_refl. exact (keys_le_trans _ _ _ X1 (keys_le_cons _ _ _)).
Qed.

Lemma create_try_succ s n s' : create_try s n = (s', None) ->
  (exists pl, s_cbr s' = (n_ref n, pl) :: s_cbr s) /\ prog_done (n_entries n) (n_create n) s'.
Proof.
  intro H. destruct (create_try_spec _ _ _ _ H) as (s1 & E & ->). destruct (exec_frame _ _ _ _ _ E) as (A1 & _).
  cbn [s_cbr]. split; [rewrite A1; eauto|]. eapply prog_done_ext; [|exact (exec_done _ _ _ _ E)].
  repeat split; cbn; try apply keys_le_refl; try apply incl_refl. apply keys_le_cons.
Qed.

Lemma proc_try_keeps s q s' o : proc_try s q = (s', o) -> s_cbr s' = s_cbr s /\ s_queue s' = s_queue s /\ ext s s'.
Proof.
  intro H. destruct (proc_try_spec _ _ _ _ H) as (s1 & E & ->). destruct (exec_frame _ _ _ _ _ E) as (A1 & A2 & X1 & X2 & X3 & X4).
  destruct o; cbn; repeat split; auto using keys_le_refl, incl_refl.
Qed.

Lemma proc_try_succ s q s' : proc_try s q = (s', None) -> prog_done [] (e_prog (q_entry q)) s'.
Proof.
  intro H. destruct (proc_try_spec _ _ _ _ H) as (s1 & E & ->). destruct (exec_done _ _ _ _ E) as (D1 & D2 & D3 & D4).
  split; [exact D1|]. split; [exact D2|]. split; [|exact D4]. intros i c k e _ _ Hn. destruct k; discriminate.
Qed.

Lemma nodup_n_NoDup l : nodup_n l = true -> NoDup l.
Proof.
  induction l as [|x l IH]; cbn [nodup_n]; intro H; [constructor|].
  apply andb_true_iff in H. destruct H as [H1 H2]. constructor; [|now apply IH].
  intro Hin. apply mem_in in Hin. rewrite Hin in H1. discriminate.
Qed.

Definition created (g : graph) : st := r_st (create_loop g).
Definition processed (g : graph) : st := r_st (process_loop (created g)).
(* the models whose processing failed, in the order _process_model_errors sees them *)
Definition failed (g : graph) : list (qitem * N) := r_final (process_loop (created g)) ++ r_retry (process_loop (created g)).

Lemma build_schemas_eq g :
  build_schemas g =
  match model_errors (s_deps (processed g)) (failed g) (s_cbr (processed g)) (s_cbn (processed g)) with
  | (cbr, cbn, es) => mkRes cbr cbn (s_deps (processed g)) (create_errs g ++ es) (s_done (processed g))
  end.
Proof. unfold build_schemas, failed, processed, created. reflexivity. Qed.

Lemma create_todo_iff g n : In n (create_todo g) <-> In n g /\ n_isref n = false.
Proof. unfold create_todo. now rewrite filter_In, negb_true_iff. Qed.

Lemma create_loop_inv g (P : st -> Prop) :
  (forall s n s' o, In n g -> n_isref n = false -> create_try s n = (s', o) -> P s -> P s') -> P st0 -> P (created g).
Proof. intro step. apply run_loop_inv. intros s n s' o Hn. apply create_todo_iff in Hn. now apply step. Qed.

Lemma create_phase_account g n : In n (create_todo g) ->
  has (s_cbr (created g)) (n_ref n) = true \/ exists c, In (n, c) (r_retry (create_loop g)).
Proof.
  intro Hn.
  destruct (run_loop_account create_try no_final (fun _ => True) (fun n s => has (s_cbr s) (n_ref n) = true) st0 (create_todo g))
    with (x := n) as [H|[H|[c H]]]; auto.
  - intros x s y s' o _ Ht. destruct (create_try_ext _ _ _ _ Ht) as (X1 & _). apply X1.
  - intros s x s' _ Ht _. destruct (create_try_succ _ _ _ Ht) as [[pl E1] _]. now rewrite E1, has_cons, N.eqb_refl.
  - apply run_loop_final in H. now destruct H as (_ & H & _).
Qed.

Definition inv_create (g : graph) (s : st) : Prop :=
  forall n, In n g -> has (s_cbr s) (n_ref n) = true -> prog_done (n_entries n) (n_create n) s.

Lemma ref_inj (g : graph) : NoDup (map n_ref g) -> forall n m, In n g -> In m g -> n_ref n = n_ref m -> n = m.
Proof.
  induction g as [|a g IH]; cbn [map]; intros Hnd n m Hn Hm E; [contradiction|].
  inversion Hnd as [|? ? Hni Hnd']; subst.
  destruct Hn as [Hn|Hn], Hm as [Hm|Hm]; subst; auto; exfalso; apply Hni; [rewrite E|rewrite <- E]; now apply in_map.
Qed.

Lemma create_phase_spec g : NoDup (map n_ref g) -> inv_create g (created g).
Proof.
  intro Hnd. apply create_loop_inv; [|intros n _ Hh; discriminate].
  intros s x s' o Hx _ Ht HI n Hn Hh. pose proof (create_try_ext _ _ _ _ Ht) as X. destruct o as [c|].
  - injection (create_try_fail _ _ _ _ Ht) as E1 _ _ _. rewrite <- E1 in Hh. eapply prog_done_ext; [exact X|]. now apply HI.
  - destruct (create_try_succ _ _ _ Ht) as [[pl E1] Hd]. rewrite E1, has_cons in Hh. apply orb_true_iff in Hh.
    destruct Hh as [Hh|Hh]; [|eapply prog_done_ext; [exact X|]; now apply HI].
    apply N.eqb_eq in Hh. now rewrite <- (ref_inj g Hnd x n Hx Hn Hh).
Qed.

Lemma process_frame s1 : s_cbr (r_st (process_loop s1)) = s_cbr s1 /\ s_queue (r_st (process_loop s1)) = s_queue s1 /\
  ext s1 (r_st (process_loop s1)).
Proof.
  apply (run_loop_inv proc_try is_rec (fun s => s_cbr s = s_cbr s1 /\ s_queue s = s_queue s1 /\ ext s1 s)).
  - intros s x s' o _ Ht (E1 & E2 & X). destruct (proc_try_keeps _ _ _ _ Ht) as (A1 & A2 & A3).
    split; [congruence|]. split; [congruence|eapply ext_trans; eauto].
  - split; [reflexivity|]. split; [reflexivity|apply ext_refl].
Qed.

Lemma process_account s1 q : In q (s_queue s1) ->
  prog_done [] (e_prog (q_entry q)) (r_st (process_loop s1)) \/
  (exists c, In (q, c) (r_retry (process_loop s1))) \/ (exists c, In (q, c) (r_final (process_loop s1))).
Proof.
  apply (run_loop_account proc_try is_rec (fun _ => True) (fun q s => prog_done [] (e_prog (q_entry q)) s)); auto.
  - intros x s y s' o _ Ht. destruct (proc_try_keeps _ _ _ _ Ht) as (_ & _ & X). now apply prog_done_ext.
  - intros s x s' _ Ht _. exact (proc_try_succ _ _ _ Ht).
Qed.

Lemma failed_queued g q c : In (q, c) (failed g) -> In q (s_queue (created g)).
Proof.
  intro H. apply in_app_or in H.
  destruct H as [H|H]; [exact (proj1 (run_loop_final proc_try is_rec _ _ q c H))|exact (proj1 (run_loop_retry proc_try is_rec _ _ q c H))].
Qed.

(* accounting (C07, schema part), for ALL graphs:
   every component of the document is a survivor, or a diagnostic names it (as the unit that could not be parsed, or in the
   removal list of the error whose cascade deleted it) *)
Theorem accounting g n : In n g ->
  has (res_cbr (build_schemas g)) (n_ref n) = true \/
  exists e, In e (res_errs (build_schemas g)) /\ ((er_create e = true /\ er_unit e = n_ref n) \/ In (n_ref n) (er_removed e)).
Proof.
  intro Hn. rewrite build_schemas_eq.
  destruct (model_errors _ _ _ _) as [[cbrF cbnF] es] eqn:M. cbn [res_cbr res_errs].
  destruct (model_errors_spec _ _ _ _ _ _ _ M) as (_ & _ & _ & M4 & _).
  destruct (process_frame (created g)) as (P1 & _).
  destruct (n_isref n) eqn:Eref.
  - right. exists (mkErr true (n_ref n) cat_reference_schema [] []). split; [|left; split; reflexivity].
    apply in_or_app. left. apply in_or_app. left.
    apply in_map_iff. exists n. split; [reflexivity|]. apply filter_In. split; assumption.
  - destruct (create_phase_account g n) as [Hc|[c Hc]]; [apply create_todo_iff; split; assumption| |].
    + rewrite <- P1 in Hc. destruct (has cbrF (n_ref n)) eqn:EF; [left; reflexivity|].
      destruct (M4 _ Hc EF) as [[e [He1 He2]] _]. right. exists e. split; [apply in_or_app; right; exact He1|right; exact He2].
    + right. exists (mkErr true (n_ref n) c [] []). split; [|left; split; reflexivity].
      apply in_or_app. left. apply in_or_app. right.
      apply in_map_iff. exists (n, c). split; [reflexivity|exact Hc].
Qed.

Lemma pushes_spec p k c : pushes p k c = true -> exists i, In i p /\ i_op i = OMintModel c (Some k).
Proof.
  unfold pushes. rewrite existsb_exists. intros [i [Hi H]]. exists i. split; [exact Hi|].
  destruct (i_op i) as [| | | |c' [k'|]|]; try discriminate. apply andb_true_iff in H. destruct H as [H1 H2].
  apply Nat.eqb_eq in H1. apply N.eqb_eq in H2. now subst.
Qed.

Lemma entries_pushed_spec p : forall es k, entries_pushed p k es = true ->
  forall j e, nth_error es j = Some e -> exists i, In i p /\ i_op i = OMintModel (e_cls e) (Some (k + j)%nat).
Proof.
  induction es as [|e0 es IH]; intros k H j e Hn; [destruct j; discriminate|].
  cbn [entries_pushed] in H. apply andb_true_iff in H. destruct H as [H1 H2]. destruct j as [|j]; cbn [nth_error] in Hn.
  - injection Hn as <-. rewrite Nat.add_0_r. now apply pushes_spec.
  - destruct (IH _ H2 _ _ Hn) as [i [Hi Ho]]. exists i. split; [exact Hi|]. rewrite Ho. f_equal. f_equal. lia.
Qed.

Definition prog_of (m : node) (p : list instr) : Prop := p = n_create m \/ exists e, In e (n_entries m) /\ p = e_prog e.

Lemma wf_node_spec n : wf_node n = true ->
  (forall j e, nth_error (n_entries n) j = Some e -> exists i, In i (n_create n) /\ i_op i = OMintModel (e_cls e) (Some j)) /\
  (forall e r, In e (n_entries n) -> In (RRef r) (e_roots e) -> r = n_ref n) /\
  (forall p i, prog_of n p -> In i p -> op_self (n_ref n) (i_op i) = true).
Proof.
  unfold wf_node. rewrite !andb_true_iff, forallb_forall. intros [[H1 H2] H3]. split; [|split].
  - intros j e. exact (entries_pushed_spec _ _ _ H1 j e).
  - intros e r He Hr. specialize (H3 e He). apply andb_true_iff in H3. destruct H3 as [H3 _].
    unfold roots_self in H3. rewrite forallb_forall in H3. specialize (H3 _ Hr). now apply N.eqb_eq in H3.
  - intros p i [->|[e [He ->]]] Hi; [|specialize (H3 e He); apply andb_true_iff in H3; destruct H3 as [_ H2']];
      unfold prog_self in *; rewrite forallb_forall in *; auto.
Qed.

Lemma wf_graph_spec g : wf_graph g = true -> NoDup (map n_ref g) /\ forall n, In n g -> wf_node n = true.
Proof.
  unfold wf_graph. intro H. apply andb_true_iff in H. destruct H as [H1 H2]. split; [now apply nodup_n_NoDup|].
  now apply forallb_forall.
Qed.

Lemma g_no_union_edge_to_failing_spec g : g_no_union_edge_to_failing g = true ->
  (forall n, In n g -> forall e, In e (node_edges n) ->
     recorded n e = true \/ has (res_cbr (build_schemas g)) (snd (fst e)) = true) /\
  (forall x, In x (res_errs (build_schemas g)) -> er_create x = true \/ exists r, In (RRef r) (er_roots x)).
Proof.
  unfold g_no_union_edge_to_failing. cbn zeta. intro H. apply andb_true_iff in H. destruct H as [H1 H2]. split.
  - intros n Hn e He. rewrite forallb_forall in H1. specialize (H1 _ Hn). rewrite forallb_forall in H1. specialize (H1 _ He).
    now apply orb_true_iff in H1.
  - intros x Hx. rewrite forallb_forall in H2. specialize (H2 _ Hx). apply orb_true_iff in H2. destruct H2 as [H2|H2]; [left; exact H2|right].
    apply existsb_exists in H2. destruct H2 as [[r|c] [Hr1 Hr2]]; [exists r; exact Hr1|discriminate].
Qed.

Lemma build_facts g : exists es,
  res_errs (build_schemas g) = create_errs g ++ es /\ res_deps (build_schemas g) = s_deps (processed g) /\
  removal_facts (s_deps (processed g)) (failed g) (s_cbr (processed g)) (s_cbn (processed g))
                (res_cbr (build_schemas g)) (res_cbn (build_schemas g)) es.
Proof.
  rewrite build_schemas_eq. destruct (model_errors _ _ _ _) as [[cbrF cbnF] es] eqn:M.
  exists es. split; [reflexivity|]. split; [reflexivity|]. exact (model_errors_spec _ _ _ _ _ _ _ M).
Qed.

Lemma survivor_created g r : has (res_cbr (build_schemas g)) r = true -> has (s_cbr (created g)) r = true.
Proof.
  intro H. destruct (build_facts g) as [es (_ & _ & F & _)]. destruct (process_frame (created g)) as (P1 & _).
  rewrite <- P1. exact (F r H).
Qed.

Lemma failed_model_removed g : wf_graph g = true -> g_no_union_edge_to_failing g = true ->
  forall n q c, In n g -> In (q_entry q) (n_entries n) -> In (q, c) (failed g) -> has (res_cbr (build_schemas g)) (n_ref n) = false.
Proof.
  intros Hwf Hg n q c Hn Hen Hm.
  destruct (wf_graph_spec _ Hwf) as [_ Hwn]. destruct (wf_node_spec n (Hwn n Hn)) as (_ & Wself & _).
  destruct (g_no_union_edge_to_failing_spec _ Hg) as [_ G2]. destruct (build_facts g) as [es (F1 & _ & _ & _ & F3 & _ & F5 & _)].
  destruct (F5 _ _ Hm) as [er (E1 & E2 & _ & _ & E5)].
  destruct (G2 er) as [Hc|[r Hr]]; [rewrite F1; apply in_or_app; now right|congruence|].
  rewrite E5 in Hr. rewrite (Wself _ r Hen Hr) in Hr. exact (F3 _ _ _ Hm Hr).
Qed.

Lemma survivor_done g : wf_graph g = true -> g_no_union_edge_to_failing g = true ->
  forall n, In n g -> has (res_cbr (build_schemas g)) (n_ref n) = true ->
  prog_done [] (n_create n) (processed g) /\ forall en, In en (n_entries n) -> prog_done [] (e_prog en) (processed g).
Proof.
  intros Hwf Hg n Hn Hs.
  destruct (wf_graph_spec _ Hwf) as [Hnd Hwn]. destruct (wf_node_spec n (Hwn n Hn)) as (Wpush & _).
  pose proof (create_phase_spec g Hnd n Hn (survivor_created g _ Hs)) as IC.
  destruct (process_frame (created g)) as (_ & _ & P2). split.
  - exact (prog_done_drop_ents _ _ _ (prog_done_ext _ _ _ _ P2 IC)).
  - intros en Hen. destruct (In_nth_error _ _ Hen) as [j Hj]. destruct (Wpush j en Hj) as [i [Hi Ho]].
    destruct IC as (_ & _ & D3 & _). destruct (D3 i _ _ _ Hi Ho Hj) as [ow Hq].
    destruct (process_account _ _ Hq) as [Hd|Herr]; [exact Hd|exfalso].
    assert (Hm : exists c, In (mkQ ow (e_name en) en, c) (failed g)).
    { destruct Herr as [[c H]|[c H]]; exists c; apply in_or_app; [now right|now left]. }
    destruct Hm as [c Hm]. rewrite (failed_model_removed g Hwf Hg n (mkQ ow (e_name en) en) c Hn Hen Hm) in Hs. discriminate.
Qed.

(* had the target been deleted, the cascade would have gone on to the component *)
Lemma resolved_edge_survives g : g_no_union_edge_to_failing g = true ->
  forall n k t rs, In n g -> has (res_cbr (build_schemas g)) (n_ref n) = true -> In (k, t, rs) (node_edges n) ->
  has (s_cbr (processed g)) t = true -> (forall x, In x rs -> In (t, x) (s_deps (processed g))) ->
  has (res_cbr (build_schemas g)) t = true.
Proof.
  intros Hg n k t rs Hn Hs He Ht Hrec. destruct (g_no_union_edge_to_failing_spec _ Hg) as [G1 _].
  destruct (G1 n Hn _ He) as [Hr|Hr]; [|exact Hr]. apply mem_root_in in Hr.
  destruct (has (res_cbr (build_schemas g)) t) eqn:Et; [reflexivity|exfalso].
  destruct (build_facts g) as [es (_ & _ & _ & _ & _ & F4 & _)]. destruct (F4 t Ht Et) as [_ Hc].
  specialize (Hc _ (Hrec _ Hr)). cbn in Hc. congruence.
Qed.

(* removal_closed (C08): under the guard, every reference
   in the description of a surviving component (in its create instructions or in the instructions of any model class it gives
   rise to: items, wrappers, union members, properties, additionalProperties, allOf parents) points at a survivor *)
Theorem removal_closed g : wf_graph g = true -> g_no_union_edge_to_failing g = true ->
  forall n, In n g -> has (res_cbr (build_schemas g)) (n_ref n) = true ->
  forall e, In e (node_edges n) -> has (res_cbr (build_schemas g)) (snd (fst e)) = true.
Proof.
  intros Hwf Hg n Hn Hs [[k t] rs] He. cbn [fst snd].
  destruct (survivor_done g Hwf Hg n Hn Hs) as [SD1 SD2].
  assert (Hexec : has (s_cbr (processed g)) t = true /\ forall x, In x rs -> In (t, x) (s_deps (processed g))).
  { pose proof He as He'. apply in_app_or in He'. destruct He' as [He'|He']; [exact (proj1 SD1 _ _ _ He')|].
    apply in_flat_map in He'. destruct He' as [en [Hen He']]. exact (proj1 (SD2 en Hen) _ _ _ He'). }
  destruct Hexec. eapply resolved_edge_survives; eauto.
Qed.

(* loops_terminate (C06/C08): the fuel the model gives each of
   the three loops suffices for EVERY graph: more fuel never changes the result, and both retry loops end in a round that made
   no progress (never by exhausting the fuel) *)
Theorem loops_terminate g :
  (forall k, loop create_try no_final (S (length (create_todo g)) + k) st0 (create_todo g) [] = create_loop g) /\
  (forall s k, loop proc_try is_rec (S (length (s_queue s)) + k) s (s_queue s) [] = process_loop s) /\
  (forall D work cbr cbn k, remove_wl (remove_fuel D work cbr + k) D work cbr cbn [] = remove_roots D work cbr cbn) /\
  r_prog (create_loop g) = false /\ (forall s, r_prog (process_loop s) = false).
Proof.
  split; [|split; [|split; [|split]]].
  - intro k. apply loop_fuel; lia.
  - intros s k. apply loop_fuel; lia.
  - intros D work cbr cbn k. apply remove_wl_fuel; rewrite remove_fuel_pot; lia.
  - apply loop_exit. lia.
  - intro s. apply loop_exit. lia.
Qed.

(* union_dependency_unrecorded_refuted (C08): the guard cannot be
   dropped.  (A graph with an unrecorded union-member edge: the abstraction function emits none, because UnionProperty.build hands
   `roots` on (repository commit 204aaa6); the kind exists in the model for code that does not.)
   A = object with a property that is an array without items (fails in process_model), U = anyOf[$ref A, string],
   M = object { u: $ref U }.  A is removed; U and M survive; U's description refers to A.  (ids: A=1 U=2 M=3) *)
Definition witness_union : graph :=
  [mkN 1 false (TModel 0%nat) [mkI (OMintModel 1 (Some 0%nat)) 0] [mkE 1 1 [RRef 1; RCls 1] [mkI (OFail 1) 0]];
   mkN 2 false TOther [mkI (ONeed EUnion 1 [] 0 false) 10] [];
   mkN 3 false (TModel 0%nat) [mkI (OMintModel 2 (Some 0%nat)) 0] [mkE 3 2 [RRef 3; RCls 2] [mkI (ONeed EProp 2 [RRef 3; RCls 2] 0 false) 0]]].

Theorem union_dependency_unrecorded_refuted :
  exists g, wf_graph g = true /\ g_no_name_pressure g = true /\ g_no_union_edge_to_failing g = false /\
    exists n e, In n g /\ has (res_cbr (build_schemas g)) (n_ref n) = true /\ In e (node_edges n) /\
                has (res_cbr (build_schemas g)) (snd (fst e)) = false.
Proof.
  exists witness_union. split; [vm_compute; reflexivity|]. split; [vm_compute; reflexivity|]. split; [vm_compute; reflexivity|].
  eexists. exists (EUnion, 1, []).
  split; [right; left; reflexivity|]. split; [vm_compute; reflexivity|]. split; [left; reflexivity|vm_compute; reflexivity].
Qed.

(* the same shape through an `items` edge cascades: the guard holds, A, L and N are all removed with one diagnostic *)
Definition witness_item : graph :=
  [mkN 1 false (TModel 0%nat) [mkI (OMintModel 1 (Some 0%nat)) 0] [mkE 1 1 [RRef 1; RCls 1] [mkI (OFail 1) 0]];
   mkN 2 false TOther [mkI (ONeed EItem 1 [RRef 2] 0 false) 0] [];
   mkN 3 false (TModel 0%nat) [mkI (OMintModel 2 (Some 0%nat)) 0] [mkE 3 2 [RRef 3; RCls 2] [mkI (ONeed EProp 2 [RRef 3; RCls 2] 0 false) 0]];
   mkN 4 false (TModel 0%nat) [mkI (OMintModel 3 (Some 0%nat)) 0] [mkE 4 3 [RRef 4; RCls 3] []]].
Example guard_satisfiable :
  wf_graph witness_item = true /\ g_no_name_pressure witness_item = true /\ g_no_union_edge_to_failing witness_item = true /\
  survivors witness_item = [4] /\ map er_removed (res_errs (build_schemas witness_item)) = [[1; 2; 3]].
Proof. vm_compute. repeat split; reflexivity. Qed.

(* provenance invariants: every queued model and every payload is
   an entry of some component; every recorded dependency was declared by an instruction of some component, with ALL its roots *)
Definition entry_of (g : graph) (e : entry) : Prop := exists m, In m g /\ In e (n_entries m).
Definition inv_q (g : graph) (s : st) : Prop :=
  (forall q, In q (s_queue s) -> entry_of g (q_entry q)) /\ (forall r e, lookup (s_cbr s) r = Some (PModel e) -> entry_of g e).

Definition dep_decl (D : list (ref * root)) (o : op) (t : ref) (x : root) : Prop :=
  (exists k rs, In (k, t, rs) (op_edge o) /\ In x rs /\ forall y, In y rs -> In (t, y) D) \/ exists c, o = ODep t c /\ x = RCls c.
Definition Decl (g : graph) (D : list (ref * root)) (t : ref) (x : root) : Prop :=
  exists m p i, In m g /\ prog_of m p /\ In i p /\ dep_decl D (i_op i) t x.
Definition inv_d (g : graph) (s : st) : Prop := forall t x, In (t, x) (s_deps s) -> Decl g (s_deps s) t x.
Definition inv_prov (g : graph) (s : st) : Prop := inv_q g s /\ inv_d g s.

Lemma Decl_mono g D D' t x : incl D D' -> Decl g D t x -> Decl g D' t x.
Proof.
  intros Hi (m & p & i & Hm & Hp & Hin & Hd). exists m, p, i. repeat split; auto.
  destruct Hd as [(k & rs & A & B & C)|Hd]; [left; exists k, rs; auto|now right].
Qed.

Lemma inv_d_add g D t rs : (forall t x, In (t, x) D -> Decl g D t x) -> (forall x, In x rs -> Decl g (add_deps D t rs) t x) ->
  forall t' x, In (t', x) (add_deps D t rs) -> Decl g (add_deps D t rs) t' x.
Proof.
  intros ID Hnew t' x Hin. apply in_app_or in Hin. destruct Hin as [Hin|Hin].
  - apply in_map_iff in Hin. destruct Hin as [y [E Hy]]. injection E as <- <-. auto.
  - eapply Decl_mono; [|apply ID, Hin]. apply incl_appr, incl_refl.
Qed.

Lemma op_ok_prov cx g m p i s s' : In m g -> prog_of m p -> In i p -> (forall e, In e (c_ents cx) -> entry_of g e) ->
  op_ok cx s (i_op i) s' -> inv_prov g s -> inv_prov g s'.
Proof.
  intros Hm Hp Hi Hents H [[Q1 Q2] ID]. remember (i_op i) as o eqn:Eo.
  assert (Hedge : forall k t rs, In (k, t, rs) (op_edge o) -> forall x, In x rs -> Decl g (add_deps (s_deps s) t rs) t x).
  { intros k t rs He x Hx. exists m, p, i. rewrite <- Eo. repeat split; auto. left. exists k, rs. split; [exact He|].
    split; [exact Hx|]. intro y. apply in_add_deps. }
  (* left by auto: the queue after ONeed; the dependencies after ONeed, OAllOf, ODep; the queue after OMintModel *)
  unfold inv_prov, inv_d in *. destruct H; (split; [split|]); cbn [s_queue s_cbr s_deps]; auto.
  - intros q Hq. apply in_app_or in Hq. destruct Hq as [Hq|Hq]; [now apply Q1|].
    destruct k, pl; cbn in Hq; try contradiction. destruct Hq as [<-|[]]. cbn. eapply Q2; eauto.
  - apply inv_d_add; [exact ID|]. apply (Hedge k). now left.
  - apply inv_d_add; [exact ID|]. apply (Hedge EAllOf). now left.
  - apply inv_d_add; [exact ID|]. intros x [<-|[]]. exists m, p, i. rewrite <- Eo. repeat split; auto. right. eauto.
  - intros q0 Hq. apply in_app_or in Hq. destruct Hq as [Hq|Hq]; [now apply Q1|].
    unfold push_entry in Hq. destruct q as [k|]; [|contradiction].
    destruct (nth_error (c_ents cx) k) as [e|] eqn:En; [|contradiction]. destruct Hq as [<-|[]].
    apply Hents. eapply nth_error_In; eauto.
Qed.

Lemma exec_prov cx g m p s s' o : In m g -> prog_of m p -> (forall e, In e (c_ents cx) -> entry_of g e) ->
  exec cx s p = (s', o) -> inv_prov g s -> inv_prov g s'.
Proof. intros Hm Hp He. apply exec_invariant. intros i sa sb Hi. now apply op_ok_prov with m p. Qed.

Lemma create_try_prov g n s s' o : In n g -> create_try s n = (s', o) -> inv_prov g s -> inv_prov g s'.
Proof.
  intros Hn H HI. destruct (create_try_spec _ _ _ _ H) as (s1 & E & ->).
  assert (HI1 : inv_prov g s1).
  { apply (exec_prov (ctx_of n) g n (n_create n) s s1 o); auto; [now left|]. intros e He. now exists n. }
  destruct HI as [[Q1 Q2] _]. destruct HI1 as [[Q1' Q2'] ID1]. destruct o; (split; [split|]); cbn [revert s_queue s_cbr s_deps]; auto.
  intros r0 e. rewrite lookup_cons. destruct (n_ref n =? r0); [|apply Q2'].
  intro Hl. injection Hl as Hp. unfold node_payload in Hp. destruct (n_top n) as [k|t|]; [| |discriminate].
  - destruct (nth_error (n_entries n) k) as [en|] eqn:En; [|discriminate]. injection Hp as <-.
    exists n. split; [exact Hn|eapply nth_error_In; eauto].
  - destruct (lookup (s_cbr s1) t) as [pl|] eqn:Lt; [|discriminate]. subst pl. eapply Q2'; eauto.
Qed.

Lemma proc_try_prov g q s s' o : entry_of g (q_entry q) -> proc_try s q = (s', o) -> inv_prov g s -> inv_prov g s'.
Proof.
  intros [m [Hm He]] H HI. destruct (proc_try_spec _ _ _ _ H) as (s1 & E & ->).
  assert (HI1 : inv_prov g s1).
  { apply (exec_prov ctx_proc g m (e_prog (q_entry q)) s s1 o); auto; [right; eauto|intros e []]. }
  destruct HI as [[Q1 Q2] _]. destruct HI1 as [[Q1' Q2'] ID1]. destruct o; (split; [split|]); cbn [revert s_queue s_cbr s_deps]; auto.
Qed.

(* the process phase reads a snapshot of the queue; dependencies are recorded to the end *)
Lemma provenance g : inv_q g (created g) /\ inv_d g (processed g).
Proof.
  assert (H1 : inv_prov g (created g)).
  { apply create_loop_inv; [intros s n s' o Hn _; now apply create_try_prov|].
    split; [split|]; [intros q []|discriminate|intros t x []]. }
  split; [apply H1|].
  apply (run_loop_inv proc_try is_rec (inv_prov g)); [|exact H1].
  intros s q s' o Hq. apply proc_try_prov. now apply H1.
Qed.

Lemma disjoint_all_spec {A} (f : A -> list N) : forall (l : list A) a b c,
  disjoint_all (map f l) = true -> In a l -> In b l -> In c (f a) -> In c (f b) -> a = b.
Proof.
  induction l as [|x l IH]; intros a b c H Ha Hb Hca Hcb; [contradiction|].
  cbn [map disjoint_all] in H. apply andb_true_iff in H. destruct H as [H1 H2]. rewrite forallb_forall in H1.
  assert (K : forall y, In y l -> In c (f x) -> In c (f y) -> False).
  { intros y Hy Hx Hy'. specialize (H1 (f y) (in_map f _ _ Hy)). rewrite forallb_forall in H1. specialize (H1 c Hx).
    apply negb_true_iff in H1. apply mem_in in Hy'. congruence. }
  destruct Ha as [Ha|Ha], Hb as [Hb|Hb]; subst; auto; [exfalso..|]; eauto.
Qed.

Lemma roots_cls_in c rs : In (RCls c) rs -> In c (roots_cls rs).
Proof. intro H. apply in_flat_map. exists (RCls c). split; [exact H|now left]. Qed.

Lemma op_edge_cls o k t rs c : In (k, t, rs) (op_edge o) -> In (RCls c) rs -> In c (op_cls o).
Proof. destruct o; cbn; try contradiction; intros [E|[]]; injection E as <- <- <-; apply roots_cls_in. Qed.

Lemma op_mints_cls o c : In c (op_mints o) -> In c (op_cls o).
Proof. destruct o; cbn; tauto. Qed.

Lemma prog_of_cls m p i c : prog_of m p -> In i p -> In c (op_cls (i_op i)) -> In c (node_cls m).
Proof.
  intros Hp Hi Hc. assert (H : In c (prog_cls p)) by (apply in_flat_map; eauto).
  apply in_or_app. destruct Hp as [->|[e [He ->]]]; [now left|right].
  apply in_flat_map. exists e. split; [exact He|]. right. apply in_or_app. now right.
Qed.

Lemma prog_of_edges m p i e : prog_of m p -> In i p -> In e (op_edge (i_op i)) -> In e (node_edges m).
Proof.
  intros Hp Hi He. assert (H : In e (prog_edges p)) by (apply in_flat_map; eauto).
  apply in_or_app. destruct Hp as [->|[en [Hen ->]]]; [now left|right]. apply in_flat_map. eauto.
Qed.

Lemma node_mints_cls n c : In c (node_mints n) -> In c (node_cls n).
Proof.
  intro H. apply in_app_or in H. destruct H as [H|H].
  - apply in_flat_map in H. destruct H as [i [Hi Hc]]. eapply prog_of_cls; [now left|exact Hi|now apply op_mints_cls].
  - apply in_flat_map in H. destruct H as [e [He H]]. apply in_flat_map in H. destruct H as [i [Hi Hc]].
    eapply prog_of_cls; [right; eauto|exact Hi|now apply op_mints_cls].
Qed.

(* classes_closed (C08/C07): under the guards, every class a
   surviving component mints (its own model class, inline models and enums of its properties, of its items and union members)
   is in classes_by_name at the end: its module is generated *)
Theorem classes_closed g : wf_graph g = true -> g_no_name_pressure g = true -> g_no_union_edge_to_failing g = true ->
  forall n, In n g -> has (res_cbr (build_schemas g)) (n_ref n) = true ->
  forall c, In c (node_mints n) -> has (res_cbn (build_schemas g)) c = true.
Proof.
  intros Hwf Hnp Hg n Hn Hs c Hc.
  destruct (survivor_done g Hwf Hg n Hn Hs) as [SD1 SD2].
  destruct (wf_graph_spec _ Hwf) as [_ Hwn]. destruct (provenance g) as [[Q1 _] ID].
  destruct (build_facts g) as [es (_ & _ & _ & _ & _ & _ & _ & F6)].
  assert (Hc2 : has (s_cbn (processed g)) c = true).
  { pose proof Hc as Hc'. apply in_app_or in Hc'. destruct Hc' as [Hc'|Hc']; [exact (proj1 (proj2 SD1) _ Hc')|].
    apply in_flat_map in Hc'. destruct Hc' as [en [Hen Hc']]. exact (proj1 (proj2 (SD2 en Hen)) _ Hc'). }
  destruct (has (res_cbn (build_schemas g)) c) eqn:Ec; [reflexivity|exfalso].
  (* whoever else mentions c is n itself *)
  assert (Same : forall m, In m g -> In c (node_cls m) -> m = n).
  { intros m Hm Hcm. exact (disjoint_all_spec node_cls g m n c Hnp Hm Hn Hcm (node_mints_cls _ _ Hc)). }
  destruct (F6 c Hc2 Ec) as [[q [cat [Hm Hr]]]|[r (Hr1 & Hr2 & Hr3)]].
  - (* c among the roots of a model that failed: it is one of n's own models *)
    destruct (Q1 q (failed_queued g q cat Hm)) as [m [Hm1 Hm2]].
    assert (m = n).
    { apply Same; [exact Hm1|]. apply in_or_app. right. apply in_flat_map. exists (q_entry q). split; [exact Hm2|].
      right. apply in_or_app. left. now apply roots_cls_in. }
    subst m. rewrite (failed_model_removed g Hwf Hg n q cat Hn Hm2 Hm) in Hs. discriminate.
  - (* c recorded as a dependant of a removed reference r: the recording instruction belongs to n *)
    destruct (ID _ _ Hr3) as (m & p & i & Hm & Hp & Hi & [(k & rs & He & Hx & Hall)|(c0 & Eo & Ex)]).
    + assert (m = n) by (apply Same; [exact Hm|]; exact (prog_of_cls m p i c Hp Hi (op_edge_cls _ _ _ _ _ He Hx))). subst m.
      rewrite (resolved_edge_survives g Hg n k r rs Hn Hs (prog_of_edges _ _ _ _ Hp Hi He) Hr1 Hall) in Hr2. discriminate.
    + injection Ex as <-.
      assert (m = n) by (apply Same; [exact Hm|]; apply (prog_of_cls m p i c Hp Hi); rewrite Eo; now left). subst m.
      destruct (wf_node_spec n (Hwn n Hn)) as (_ & _ & Wself). specialize (Wself p i Hp Hi). rewrite Eo in Wself.
      apply N.eqb_eq in Wself. congruence.
Qed.

(* name_pressure_refuted: M has an inline object property whose minted class name is the class name of component MP.  M fails with a
   duplicate-name diagnostic; the dependency (M, class MP) recorded BEFORE the duplicate check makes the removal of M pop the
   class of the unrelated component MP, which stays referenced by User: no module for MP, no diagnostic naming MP *)
Definition witness_pressure : graph :=
  [mkN 1 false (TModel 0%nat) [mkI (OMintModel 1 (Some 0%nat)) 0] [mkE 1 1 [RRef 1; RCls 1] []];
   mkN 2 false (TModel 0%nat) [mkI (OMintModel 2 (Some 0%nat)) 0] [mkE 2 2 [RRef 2; RCls 2] [mkI (ODep 2 1) 0; mkI (OMintModel 1 None) 0]];
   mkN 3 false (TModel 0%nat) [mkI (OMintModel 3 (Some 0%nat)) 0] [mkE 3 3 [RRef 3; RCls 3] [mkI (ONeed EProp 1 [RRef 3; RCls 3] 0 false) 0]]].
Theorem name_pressure_refuted :
  exists g, wf_graph g = true /\ g_no_union_edge_to_failing g = true /\ g_no_name_pressure g = false /\
    exists n c, In n g /\ has (res_cbr (build_schemas g)) (n_ref n) = true /\ In c (node_mints n) /\
                has (res_cbn (build_schemas g)) c = false /\
                forall e, In e (res_errs (build_schemas g)) -> er_unit e <> n_ref n /\ ~ In (n_ref n) (er_removed e).
Proof.
  exists witness_pressure. split; [vm_compute; reflexivity|]. split; [vm_compute; reflexivity|]. split; [vm_compute; reflexivity|].
  eexists. exists 1.
  split; [left; reflexivity|]. split; [vm_compute; reflexivity|]. split; [left; reflexivity|]. split; [vm_compute; reflexivity|].
  vm_compute. intros e [<-|[]]. cbn. split; [discriminate|]. intros [H|[]]. discriminate.
Qed.

(* the cascade deletes EXACTLY the recorded dependants:
   a reference is deleted only if it is a root of a model that failed, or a recorded dependant of a deleted reference *)
Inductive Reach (D : list (ref * root)) (cbr : list (ref * payload)) (work : list root) : ref -> Prop :=
| reach_root : forall r, In (RRef r) work -> has cbr r = true -> Reach D cbr work r
| reach_dep : forall t r, Reach D cbr work t -> In (t, RRef r) D -> has cbr r = true -> Reach D cbr work r.

Lemma Reach_mono D cbr cbr0 work work0 r : keys_le cbr cbr0 -> incl work work0 -> Reach D cbr work r -> Reach D cbr0 work0 r.
Proof. intros K W H. induction H; [apply reach_root; auto|eapply reach_dep; eauto]. Qed.

Lemma remove_wl_exact D : forall fuel work cbr cbn acc cbr' cbn' acc',
  remove_wl fuel D work cbr cbn acc = (cbr', cbn', acc') ->
  forall r, has cbr r = true -> has cbr' r = false -> Reach D cbr work r.
Proof.
  induction fuel as [|fuel IH]; intros work cbr cbn acc cbr' cbn' acc' H r H1 H2; cbn [remove_wl] in H.
  - injection H as <- _ _. congruence.
  - destruct work as [|[r0|c] w].
    + injection H as <- _ _. congruence.
    + destruct (has cbr r0) eqn:E.
      * destruct (N.eq_dec r0 r) as [->|Hne]; [apply reach_root; [now left|exact H1]|].
        rewrite <- (has_del_other cbr r0 r Hne) in H1. specialize (IH _ _ _ _ _ _ _ H r H1 H2).
        (* a root that is a dependant of r0 is reached through r0, whose own removal started from the work list *)
        clear - IH E. induction IH as [r Hin Hh|t r _ IHt Hin Hh].
        -- apply in_app_or in Hin. destruct Hin as [Hin|Hin].
           ++ apply reach_dep with (t := r0); [apply reach_root; [now left|exact E]|now apply in_children|exact (keys_le_del _ _ _ Hh)].
           ++ apply reach_root; [now right|exact (keys_le_del _ _ _ Hh)].
        -- eapply reach_dep; [exact IHt|exact Hin|exact (keys_le_del _ _ _ Hh)].
      * eapply Reach_mono; [apply keys_le_refl|apply incl_tl, incl_refl|exact (IH _ _ _ _ _ _ _ H r H1 H2)].
    + eapply Reach_mono; [apply keys_le_refl|apply incl_tl, incl_refl|exact (IH _ _ _ _ _ _ _ H r H1 H2)].
Qed.

Lemma model_errors_exact D : forall mes cbr cbn cbrF cbnF es,
  model_errors D mes cbr cbn = (cbrF, cbnF, es) ->
  forall r, has cbr r = true -> has cbrF r = false -> exists q c, In (q, c) mes /\ Reach D cbr (e_roots (q_entry q)) r.
Proof.
  induction mes as [|[q c] mes IH]; intros cbr cbn cbrF cbnF es H r H1 H2; cbn [model_errors] in H.
  - injection H as <- _ _. congruence.
  - destruct (remove_roots D (e_roots (q_entry q)) cbr cbn) as [[cbr1 cbn1] acc] eqn:R.
    destruct (model_errors D mes cbr1 cbn1) as [[cbr2 cbn2] es2] eqn:M. injection H as <- _ _.
    destruct (has cbr1 r) eqn:E1.
    + destruct (IH _ _ _ _ _ M r E1 H2) as [q0 [c0 [A B]]]. exists q0, c0. split; [now right|].
      apply remove_wl_spec in R; [|rewrite remove_fuel_pot; apply Nat.lt_succ_diag_r]. destruct R as (R1 & _).
      eapply Reach_mono; [exact R1|apply incl_refl|exact B].
    + exists q, c. split; [now left|]. eapply remove_wl_exact; eauto.
Qed.

(* removal_exact (C08, containment of the cascade): nothing is deleted but the roots of the failed models and what recorded
   dependencies reach from them (create / process delete nothing: create_try_ext, proc_try_keeps).  processed g, failed g are
   written out as in props/C08.v. *)
Theorem removal_exact g :
  let s2 := r_st (process_loop (r_st (create_loop g))) in
  let pl := process_loop (r_st (create_loop g)) in
  forall r, has (s_cbr s2) r = true -> has (res_cbr (build_schemas g)) r = false ->
  exists q c, In (q, c) (r_final pl ++ r_retry pl) /\ Reach (s_deps s2) (s_cbr s2) (e_roots (q_entry q)) r.
Proof.
  cbn zeta. intros r H1 H2. rewrite build_schemas_eq in H2.
  destruct (model_errors _ _ _ _) as [[cbrF cbnF] es] eqn:M. exact (model_errors_exact _ _ _ _ _ _ _ M r H1 H2).
Qed.

(* union_inline_reprocessed_refuted: U = anyOf[{x: {y: string}}, string] - a VALID document.  The inline object member is processed
   when U is created (UnionProperty.build -> property_from_data, process_properties defaults to True) and is ALSO appended to
   models_to_process; _process_models runs it again, its own inline class UType0X is now a duplicate, the error's roots are
   {UType0} only (no reference: the union passed no roots): UType0 is popped, U survives and refers to it; the diagnostic's
   removal list is empty.  (ids: U = 1; classes UType0 = 1, UType0X = 2) *)
Definition witness_union_inline : graph :=
  [mkN 1 false TOther [mkI (OMintModel 2 (Some 0%nat)) 10; mkI (OMintModel 1 (Some 1%nat)) 10]
       [mkE 3 2 [RCls 1; RCls 2] []; mkE 2 1 [RCls 1] [mkI (OMintModel 2 None) 0]]].
Theorem union_inline_reprocessed_refuted :
  exists g, wf_graph g = true /\ g_no_name_pressure g = true /\ g_no_union_edge_to_failing g = false /\
    exists n c, In n g /\ has (res_cbr (build_schemas g)) (n_ref n) = true /\ In c (node_mints n) /\
                has (res_cbn (build_schemas g)) c = false /\ map er_removed (res_errs (build_schemas g)) = [[]].
Proof.
  exists witness_union_inline. split; [vm_compute; reflexivity|]. split; [vm_compute; reflexivity|]. split; [vm_compute; reflexivity|].
  eexists. exists 1. split; [left; reflexivity|]. split; [vm_compute; reflexivity|]. split; [vm_compute; tauto|].
  split; vm_compute; reflexivity.
Qed.
