(* CookiesThm.v — for EVERY sequence of constructions, derivations (with_cookies / evolve / with_headers / with_timeout) and uses,
   each request carries exactly the client's own cookie jar, overridden in turn by the additions requested through that very
   client after the variant's httpx client was built. *)
From Coq Require Import NArith List Bool.
Import ListNotations.
Require Import OPC.Uni OPC.UniThm OPC.Client OPC.ClientThm OPC.Cookies.
Open Scope N_scope.

Lemma pairs_eqb_refl : forall d, pairs_eqb d d = true.
Proof. induction d as [|[k v] r IH]; [reflexivity|]. cbn [pairs_eqb]. now rewrite !str_eqb_refl, IH. Qed.

Definition cinv_client (c : cclient) : Prop :=
  forall v k, kcache c v = Some k -> k = fold_left dmerge (klate c v) (jar c).
Definition CInv (w : list cclient) : Prop := Forall cinv_client w.

Lemma unused_cclient_ok j : cinv_client {| jar := j; ksync := None; kasync := None; late_sync := []; late_async := [] |}.
Proof. intros [|] k Hk; discriminate Hk. Qed.

Lemma CInv_step : forall w o, CInv w -> CInv (fst (cstep w o)).
Proof.
  intros w o H. destruct o as [j | i add | i v]; cbn [cstep].
  2-3: destruct (nth_error w i) as [c|] eqn:E; [|exact H].
  2-3: pose proof (Forall_nth_error _ _ _ _ H E) as Hc.
  - apply Forall_snoc; [exact H|apply unused_cclient_ok].
  - (* with_cookies *)
    apply Forall_snoc; [|apply unused_cclient_ok]. apply Forall_upd; [exact H|].
    set (c' := Build_cclient _ _ _ _ _). intros v k Hk.
    assert (Ek : kcache c' v = option_map (fun k => dmerge k add) (kcache c v)) by now destruct v.
    assert (El : klate c' v = match kcache c v with Some _ => klate c v ++ [add] | None => klate c v end) by now destruct v.
    rewrite Ek in Hk. rewrite El. destruct (kcache c v) as [k0|] eqn:E0; [|discriminate]. injection Hk as <-.
    rewrite fold_left_app. cbn [fold_left jar c']. f_equal. now apply Hc.
  - (* first use of a variant *)
    destruct (kcache c v) as [k0|] eqn:Ek; [exact H|].
    apply Forall_upd; [exact H|]. intros v' k Hk.
    destruct v, v'; cbn [kcache klate jar] in *; try (injection Hk as <-; reflexivity).
    + exact (Hc Async k Hk).
    + exact (Hc Sync k Hk).
Qed.

Lemma use_sends_expected w i v c : CInv w -> nth_error w i = Some c -> snd (cstep w (CUse i v)) = Some (use_expected c v).
Proof.
  intros H E. cbn [cstep]. rewrite E. unfold use_expected.
  pose proof (Forall_nth_error _ _ _ _ H E v) as Hc.
  destruct (kcache c v) as [k|]; cbn [snd]; [|reflexivity]. f_equal. now apply Hc.
Qed.

Theorem cookies_sent_from : forall ops w, CInv w -> cookies_run w ops = true.
Proof.
  intros ops w H.
  apply (along_run cstep CInv (fun _ => true) (fun w ops => cookies_run w ops = true)); [| | |exact H|now apply forallb_forall].
  - intros w' o Hw _. now apply CInv_step.
  - reflexivity.
  - clear w ops H. intros w o r H Hr. cbn [cookies_run].
    destruct (cstep w o) as [w1 out] eqn:Es. cbn [fst] in Hr. rewrite Hr, andb_true_r.
    destruct o as [j | i add | i v]; try reflexivity.
    destruct (nth_error w i) as [c|] eqn:E; [|now destruct out].
    pose proof (use_sends_expected w i v c H E) as Hs. rewrite Es in Hs. cbn [snd] in Hs. subst out. apply pairs_eqb_refl.
Qed.

Theorem cookies_sent : forall ops, cookies_run [] ops = true.
Proof. intro ops. apply cookies_sent_from. constructor. Qed.

Theorem derived_jar : forall w i add c, nth_error w i = Some c ->
  nth_error (fst (cstep w (CDerive i add))) (length w) = Some {| jar := dmerge (jar c) add; ksync := None; kasync := None; late_sync := []; late_async := [] |}.
Proof.
  intros w i add c E. cbn [cstep]. rewrite E. cbn [fst].
  rewrite <- (length_upd w i) at 1. apply nth_error_snoc.
Qed.

(* non-vacuity, and the side effect on the ORIGINAL client: with_cookies also changes what the client it was called on sends *)
Example cookies_example :
  snd (crun [] [CNew [([115], [49])]; CUse 0 Sync; CDerive 0 [([115], [50]); ([116], [51])]; CUse 0 Sync; CUse 0 Async; CUse 1 Async])
  = [None; Some [([115], [49])]; None; Some [([115], [50]); ([116], [51])]; Some [([115], [49])]; Some [([115], [50]); ([116], [51])]].
Proof. vm_compute. reflexivity. Qed.
(* i: the last output of ops, a use of client 0; S (S i): the same use after the with_cookies *)
Theorem with_cookies_changes_original_refuted : exists ops i v a b,
  nth_error (snd (crun [] ops)) i = Some (Some a) /\ nth_error (snd (crun [] (ops ++ [CDerive 0 [([115], [50])]; CUse 0 v]))) (S (S i)) = Some (Some b) /\ a <> b.
Proof.
  exists [CNew [([115], [49])]; CUse 0 Sync], 1%nat, Sync, [([115], [49])], [([115], [50])]. vm_compute. repeat split; try reflexivity. discriminate.
Qed.
