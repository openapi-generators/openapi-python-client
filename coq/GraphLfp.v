(* GraphLfp.v -- the retry loops of Graph.v compute least fixed points (create_lfp, process_failed_iff), and what survives depends only on the part of
   the graph a component can reach (containment, C08): replacing the description of component b by anything else changes the
   fate of no component that does not reach b. *)
From Coq Require Import NArith List Bool Lia PeanoNat.
Import ListNotations.
Require Import OPC.Graph OPC.GraphThm.
Open Scope N_scope.

(* why an item is left in the retry list: one of its
   instructions fails in the FINAL state.  (It failed in the last round; every attempt of that round failed, and failed attempts
   change nothing an instruction looks at.) *)
Lemma op_err_same_refs s s' o c : s_cbr s = s_cbr s' -> s_done s = s_done s' -> op_err s o c -> op_err s' o c.
Proof. intros E1 E2 H. destruct H; [..|apply err_allof_unprocessed with e| |]; try constructor; congruence. Qed.

Lemma retry_fails_at_end {It} (try : st -> It -> st * option N) (is_final : N -> bool) (cx : It -> ctx) (prog : It -> list instr) :
  (forall s x s' o, try s x = (s', o) -> exists s1, exec (cx x) s (prog x) = (s1, o)) ->
  (forall s x s' c, try s x = (s', Some c) -> same_know s s') ->
  forall s todo x c, In (x, c) (r_retry (run_loop try is_final s todo)) ->
  In x todo /\ exists i c0, In i (prog x) /\ op_err (r_st (run_loop try is_final s todo)) (i_op i) c0 /\ c = report i c0.
Proof.
  intros Hspec Hfail s todo x c Hx. apply run_loop_retry in Hx. destruct Hx as [Hin (s0 & Hs & Ha)]. split; [exact Hin|].
  assert (K : same_know s0 (r_st (run_loop try is_final s todo))).
  { refine (attempts_preserve try _ (same_know s0) _ s0 _ Ha eq_refl).
    intros sa y sb [c'|] Ho Ht Ka; [|contradiction]. exact (eq_trans Ka (Hfail _ _ _ _ Ht)). }
  destruct (try s0 x) as [s0' o] eqn:Et. cbn in Hs. subst o. destruct (Hspec _ _ _ _ Et) as [s1 E].
  injection K as K1 _ K3 _. destruct (exec_frame _ _ _ _ _ E) as (F1 & F2 & _).
  destruct (exec_run _ _ _ _ _ E) as (i & c0 & Hi & He & Hc). exists i, c0. split; [exact Hi|]. split; [|exact Hc].
  apply (op_err_same_refs s1); [congruence|congruence|exact He].
Qed.

Lemma create_retry_fails_at_end g n c : In (n, c) (r_retry (create_loop g)) ->
  In n (create_todo g) /\ exists i c0, In i (n_create n) /\ op_err (created g) (i_op i) c0 /\ c = report i c0.
Proof.
  apply (retry_fails_at_end create_try no_final ctx_of n_create); [|exact create_try_fail].
  intros s x s' o H. destruct (create_try_spec _ _ _ _ H) as [s1 [E _]]. eauto.
Qed.

Lemma process_retry_fails_at_end s1 q c : In (q, c) (r_retry (process_loop s1)) ->
  In q (s_queue s1) /\ exists i c0, In i (e_prog (q_entry q)) /\ op_err (r_st (process_loop s1)) (i_op i) c0 /\ c = report i c0.
Proof.
  apply (retry_fails_at_end proc_try is_rec (fun _ => ctx_proc) (fun q => e_prog (q_entry q))); [|exact proc_try_fail].
  intros s x s' o H. destruct (proc_try_spec _ _ _ _ H) as [s1' [E _]]. eauto.
Qed.

Lemma exec_ok_static cx p s s' : exec cx s p = (s', None) -> forall i, In i p ->
  match i_op i with
  | OFail _ => False
  | OAllOf t _ _ => (exists e, lookup (s_cbr s) t = Some (PModel e)) /\ mem t (s_done s) = true
  | _ => True
  end.
Proof.
  intros H i Hi. destruct (exec_run _ _ _ _ _ H i Hi) as (si & si' & (F1 & F2 & _) & Ho & _).
  rewrite <- F1, <- F2. destruct Ho; eauto.
Qed.

Definition is_mint (o : op) : bool := match o with OMintModel _ _ | OMintEnum _ _ => true | _ => false end.

Lemma all_progs_in g n p : In n g -> prog_of n p -> In p (all_progs g).
Proof. intros Hn Hp. apply in_flat_map. exists n. split; [exact Hn|]. destruct Hp as [->|[e [He ->]]]; [now left|right; now apply in_map]. Qed.

Lemma g_plain_spec g : g_plain g = true -> forall n p i, In n g -> prog_of n p -> In i p -> instr_plain i = true.
Proof.
  unfold g_plain. rewrite forallb_forall. intros H n p i Hn Hp. specialize (H p (all_progs_in g n p Hn Hp)).
  rewrite forallb_forall in H. apply H.
Qed.

(* a plain instruction that mints reports the category of its own failure, and no plain instruction reports "recursive" *)
Lemma plain_report i s c0 : instr_plain i = true -> op_err s (i_op i) c0 ->
  report i c0 <> cat_recursive /\ (is_mint (i_op i) = true -> report i c0 = c0 /\ (c0 = cat_dup \/ c0 = cat_enum_conflict)).
Proof.
  unfold instr_plain, report. rewrite andb_true_iff, negb_true_iff, N.eqb_neq. intros [Ho Hi] He.
  remember (i_op i) as o eqn:Eo.
  assert (H0 : c0 <> cat_recursive).
  { destruct He as [c|? ? ? ? rc ?|? ? ? ?|? ? ? ?|? ? rc ?|? ?|? ?]; cbn in Hi; try discriminate;
      [now apply negb_true_iff, N.eqb_neq in Hi| |]; apply negb_true_iff in Hi; subst rc; discriminate. }
  split.
  - destruct (i_ovr i =? 0); [exact H0|]. apply N.eqb_neq in H0. now rewrite H0.
  - destruct He; cbn; try (intros; discriminate); intros _; rewrite Hi; auto.
Qed.

Lemma g_no_dup_error_spec g : g_no_dup_error g = true ->
  forall e, In e (res_errs (build_schemas g)) -> er_cat e <> cat_dup /\ er_cat e <> cat_enum_conflict.
Proof.
  unfold g_no_dup_error. rewrite forallb_forall. intros H e He. specialize (H _ He).
  rewrite andb_true_iff, !negb_true_iff, !N.eqb_neq in H. exact H.
Qed.

Lemma plain_failure_not_mint g i s c0 e : g_no_dup_error g = true -> instr_plain i = true -> op_err s (i_op i) c0 ->
  In e (res_errs (build_schemas g)) -> er_cat e = report i c0 -> is_mint (i_op i) = false.
Proof.
  intros Hdup Hpl He Hin Hc. destruct (is_mint (i_op i)) eqn:Em; [exfalso|reflexivity].
  destruct (proj2 (plain_report i s c0 Hpl He) Em) as [Hr Hd]. destruct (g_no_dup_error_spec g Hdup e Hin) as [D1 D2].
  rewrite Hc, Hr in D1, D2. destruct Hd; congruence.
Qed.

(* create phase: least fixed point *)
Fixpoint Cn (g : graph) (k : nat) (n : node) : Prop :=
  match k with
  | O => False
  | S k' => In n g /\ n_isref n = false /\ static_ok_c (n_create n) = true /\
            forall t, In t (need_ts (n_create n)) -> exists m, In m g /\ n_ref m = t /\ Cn g k' m
  end.
Definition C (g : graph) (n : node) : Prop := exists k, Cn g k n.

Lemma Cn_le g : forall k k' n, (k <= k')%nat -> Cn g k n -> Cn g k' n.
Proof.
  induction k as [|k IH]; intros k' n Hle H; [destruct H|]. destruct k' as [|k']; [lia|]. destruct H as (A & B & D & E).
  repeat (split; [assumption|]). intros t Ht. destruct (E t Ht) as [m (M1 & M2 & M3)]. exists m.
  repeat (split; [assumption|]). apply (IH k'); [lia|exact M3].
Qed.

Lemma finite_rank {A} (P : nat -> A -> Prop) (l : list A) :
  (forall k k' a, (k <= k')%nat -> P k a -> P k' a) -> (forall a, In a l -> exists k, P k a) -> exists K, forall a, In a l -> P K a.
Proof.
  intros Hm. induction l as [|a l IH]; intro H; [exists O; intros a []|].
  destruct (H a (or_introl eq_refl)) as [k1 H1]. destruct IH as [k2 H2]; [intros b Hb; apply H; now right|].
  exists (Nat.max k1 k2). intros b [<-|Hb]; [eapply Hm; [|exact H1]; lia|eapply Hm; [|apply H2, Hb]; lia].
Qed.

Lemma C_intro g n : In n g -> n_isref n = false -> static_ok_c (n_create n) = true ->
  (forall t, In t (need_ts (n_create n)) -> exists m, In m g /\ n_ref m = t /\ C g m) -> C g n.
Proof.
  intros H1 H2 H3 H4.
  destruct (finite_rank (fun k t => exists m, In m g /\ n_ref m = t /\ Cn g k m) (need_ts (n_create n))) as [K HK].
  - intros k k' t Hle [m (A & B & D)]. exists m. split; [exact A|]. split; [exact B|]. eapply Cn_le; eauto.
  - intros t Ht. destruct (H4 t Ht) as [m (A & B & [k D])]. exists k, m. auto.
  - exists (S K). cbn [Cn]. auto.
Qed.

Lemma need_ts_iff p t : In t (need_ts p) <-> exists i k rs nm rc, In i p /\ i_op i = ONeed k t rs nm rc.
Proof.
  unfold need_ts. rewrite in_flat_map. split.
  - intros [i [Hi Ht]]. destruct (i_op i) eqn:E; try contradiction. destruct Ht as [<-|[]]. repeat eexists; eauto.
  - intros (i & k & rs & nm & rc & Hi & E). exists i. split; [exact Hi|]. rewrite E. now left.
Qed.

Lemma need_ts_edges p t : In t (need_ts p) -> exists k rs, In (k, t, rs) (prog_edges p).
Proof.
  intro H. apply need_ts_iff in H. destruct H as (i & k & rs & nm & rc & Hi & E). exists k, rs.
  apply in_flat_map. exists i. split; [exact Hi|]. rewrite E. now left.
Qed.

(* soundness: whatever the create loop puts into classes_by_reference is derivable *)
Definition inv_C (g : graph) (s : st) : Prop :=
  s_done s = [] /\ (forall r, has (s_cbr s) r = true -> exists n, In n g /\ n_ref n = r /\ n_isref n = false /\ C g n).

Lemma create_sound g : inv_C g (created g).
Proof.
  apply create_loop_inv; [|split; [reflexivity|discriminate]].
  intros s x s' o Hx Hrf Ht [Hd HI]. destruct (create_try_spec _ _ _ _ Ht) as (s1 & E & Es).
  destruct (exec_frame _ _ _ _ _ E) as (F1 & F2 & _). split; [subst s'; destruct o; cbn; congruence|].
  destruct o as [c|].
  - injection (create_try_fail _ _ _ _ Ht) as E1 _ _ _. rewrite <- E1. exact HI.
  - intros r0 Hh. destruct (create_try_succ _ _ _ Ht) as [[pl E1] _]. rewrite E1, has_cons in Hh.
    apply orb_true_iff in Hh. destruct Hh as [Hh|Hh]; [|now apply HI].
    apply N.eqb_eq in Hh. subst r0. exists x. repeat split; auto. apply C_intro; auto.
    + apply forallb_forall. intros i Hi. pose proof (exec_ok_static _ _ _ _ E i Hi) as W. rewrite Hd in W.
      destruct (i_op i); try reflexivity; [destruct W|destruct W as [_ W]; discriminate].
    + intros t Htn. destruct (need_ts_edges _ _ Htn) as [k [rs He]].
      destruct (exec_done _ _ _ _ E) as (D1 & _). destruct (D1 _ _ _ He) as [Hc _]. rewrite F1 in Hc.
      destruct (HI t Hc) as [m (M1 & M2 & M3 & M4)]. exists m. auto.
Qed.

Lemma create_err_reported g n c : In (n, c) (r_retry (create_loop g)) ->
  In (mkErr true (n_ref n) c [] []) (res_errs (build_schemas g)).
Proof.
  intro H. destruct (build_facts g) as [es (F1 & _)]. rewrite F1. apply in_or_app. left. apply in_or_app. right.
  apply in_map_iff. now exists (n, c).
Qed.

(* completeness: every derivable component is created (the loop stops only when nothing more can be done) *)
Lemma create_complete g : g_plain g = true -> g_no_dup_error g = true ->
  forall n, C g n -> has (s_cbr (created g)) (n_ref n) = true.
Proof.
  intros Hpl Hdup n [k Hk]. revert n Hk. induction k as [|k IH]; intros n Hk; [destruct Hk|].
  destruct Hk as (Hn & Hrf & Hst & Hts).
  destruct (create_phase_account g n) as [Hc|[c Hc]]; [now apply create_todo_iff|exact Hc|exfalso].
  destruct (create_retry_fails_at_end g n c Hc) as [_ (i & c0 & Hi & He & Hrep)].
  pose proof (plain_failure_not_mint g i _ c0 _ Hdup (g_plain_spec g Hpl n _ i Hn (or_introl eq_refl) Hi) He
                (create_err_reported g n c Hc) Hrep) as Hnm.
  unfold static_ok_c in Hst. rewrite forallb_forall in Hst. specialize (Hst i Hi).
  remember (i_op i) as o eqn:Eo.
  destruct He as [c1|k' t rs nm rc H|t rs rc H|t rs rc H|t rs rc e H M|c1 q|c1 v];
    [discriminate Hst| |discriminate Hst|discriminate Hst|discriminate Hst|discriminate Hnm|discriminate Hnm].
  destruct (Hts t) as [m (M1 & M2 & M3)]; [apply need_ts_iff; repeat eexists; eauto|].
  specialize (IH m M3). rewrite M2 in IH. apply has_lookup in IH. destruct IH as [v Hv]. congruence.
Qed.

(* create_lfp: a component is in classes_by_reference after _create_schemas exactly when it
   has a derivation (it is not a bare reference, nothing in it fails by itself, and everything it refers to at create time has a
   derivation) - whatever the order of the components *)
Theorem create_lfp g : wf_graph g = true -> g_plain g = true -> g_no_dup_error g = true ->
  forall n, In n g -> (has (s_cbr (r_st (create_loop g))) (n_ref n) = true <-> C g n).
Proof.
  intros Hwf Hpl Hdup n Hn. destruct (wf_graph_spec _ Hwf) as [Hnd _]. split; [|now apply create_complete].
  intro Hc. destruct (create_sound g) as [_ CS]. destruct (CS _ Hc) as [n' (N1 & N2 & N3 & N4)].
  now rewrite <- (ref_inj g Hnd n' n N1 Hn N2).
Qed.

(* an item that the instructions of component cx queue under an owner is owned by the component, and carries the entry of its
   top-level model if it has one *)
Definition own_ok (cx : ctx) (q : qitem) : Prop :=
  forall r, q_owner q = Some r ->
  r = c_ref cx /\ forall k e, c_top cx = TModel k -> nth_error (c_ents cx) k = Some e -> q_entry q = e.

Lemma exec_new_items cx p s s' o : exec cx s p = (s', o) -> forall q, In q (s_queue s') -> In q (s_queue s) \/ own_ok cx q.
Proof.
  intro H. apply (exec_invariant cx (fun s' => forall q, In q (s_queue s') -> In q (s_queue s) \/ own_ok cx q) p) with (2 := H); [|auto].
  intros i sa sb _ Ho HI. destruct Ho; cbn [s_queue]; auto; intros q0 Hq; apply in_app_or in Hq; destruct Hq as [Hq|Hq]; auto; right.
  - destruct k, pl; cbn in Hq; try contradiction. destruct Hq as [<-|[]]. intros r Hr. cbn in Hr. unfold wrap_owner in Hr.
    destruct (c_top cx); try discriminate. injection Hr as <-. split; [reflexivity|discriminate].
  - unfold push_entry in Hq. destruct q as [k|]; [|contradiction].
    destruct (nth_error (c_ents cx) k) as [e|] eqn:En; [|contradiction]. destruct Hq as [<-|[]]. intros r Hr. cbn in Hr.
    destruct (c_top cx) as [k'| |]; try discriminate. destruct (Nat.eqb_spec k k') as [->|]; [|discriminate].
    injection Hr as <-. split; [reflexivity|]. intros k0 e0 Hk Hn0. injection Hk as <-. cbn. congruence.
Qed.

Lemma exec_pushed_top n s s' k e : exec (ctx_of n) s (n_create n) = (s', None) -> wf_node n = true ->
  n_top n = TModel k -> nth_error (n_entries n) k = Some e -> In (mkQ (Some (n_ref n)) (e_name e) e) (s_queue s').
Proof.
  intros H Hwf Htop Hnth. destruct (wf_node_spec n Hwf) as (Wpush & _). destruct (Wpush k e Hnth) as [i [Hi Ho]].
  destruct (exec_run _ _ _ _ _ H i Hi) as (si & si' & _ & Hok & F). rewrite Ho in Hok.
  apply F. inversion Hok; subst. cbn [s_queue]. apply in_or_app. right.
  unfold push_entry. cbn [ctx_of c_ents c_top c_ref]. rewrite Hnth, Htop, Nat.eqb_refl. now left.
Qed.

Definition inv_own (g : graph) (s : st) : Prop :=
  (forall q r, In q (s_queue s) -> q_owner q = Some r ->
     forall m k e, In m g -> n_ref m = r -> n_top m = TModel k -> nth_error (n_entries m) k = Some e -> q_entry q = e) /\
  (forall m k e, In m g -> has (s_cbr s) (n_ref m) = true -> n_top m = TModel k -> nth_error (n_entries m) k = Some e ->
     lookup (s_cbr s) (n_ref m) = Some (PModel e) /\ In (mkQ (Some (n_ref m)) (e_name e) e) (s_queue s)) /\
  (forall m, In m g -> has (s_cbr s) (n_ref m) = true ->
     (n_top m = TOther \/ exists k, n_top m = TModel k /\ nth_error (n_entries m) k = None) -> lookup (s_cbr s) (n_ref m) = Some POther).

Lemma create_own g : wf_graph g = true -> inv_own g (created g).
Proof.
  intro Hwf. destruct (wf_graph_spec _ Hwf) as [Hnd Hwn]. apply create_loop_inv; [|repeat split; intros; try contradiction; discriminate].
  intros s x s' o Hx _ Ht (I1 & I2 & I3). destruct (create_try_spec _ _ _ _ Ht) as (s1 & E & ->).
  destruct o as [c|]; [split; [|split]; cbn; auto|].
  destruct (exec_frame _ _ _ _ _ E) as (F1 & _ & _ & _ & _ & F5).
  (* a component other than x keeps what it had; x gets its payload *)
  assert (Hother : forall m, In m g -> n_ref x <> n_ref m -> has ((n_ref x, node_payload x s1) :: s_cbr s1) (n_ref m) = true ->
            has (s_cbr s) (n_ref m) = true /\ lookup ((n_ref x, node_payload x s1) :: s_cbr s1) (n_ref m) = lookup (s_cbr s) (n_ref m)).
  { intros m Hm Hne. apply N.eqb_neq in Hne. now rewrite has_cons, lookup_cons, Hne, F1. }
  split; [|split]; cbn [s_queue s_cbr].
  - intros q r Hq Ho m k e Hm Hr Htop Hnth. destruct (exec_new_items _ _ _ _ _ E q Hq) as [A|A]; [eapply I1; eauto|].
    destruct (A r Ho) as [-> A2]. cbn [ctx_of c_ref c_top c_ents] in A2. rewrite (ref_inj g Hnd m x Hm Hx Hr) in *. eauto.
  - intros m k e Hm Hh Htop Hnth. destruct (N.eq_dec (n_ref x) (n_ref m)) as [Eq|Ne].
    + rewrite <- (ref_inj g Hnd x m Hx Hm Eq) in *. rewrite lookup_cons, N.eqb_refl. unfold node_payload. rewrite Htop, Hnth.
      split; [reflexivity|]. exact (exec_pushed_top x s s1 k e E (Hwn x Hx) Htop Hnth).
    + destruct (Hother m Hm Ne Hh) as [Hh' ->]. destruct (I2 m k e Hm Hh' Htop Hnth) as [A B]. auto.
  - intros m Hm Hh Htop. destruct (N.eq_dec (n_ref x) (n_ref m)) as [Eq|Ne].
    + rewrite <- (ref_inj g Hnd x m Hx Hm Eq) in *. rewrite lookup_cons, N.eqb_refl. unfold node_payload.
      destruct Htop as [->|[k [-> ->]]]; reflexivity.
    + destruct (Hother m Hm Ne Hh) as [Hh' ->]. auto.
Qed.

(* process phase: least fixed point *)
Fixpoint Pn (g : graph) (k : nat) (e : entry) : Prop :=
  match k with
  | O => False
  | S k' => static_ok_p (e_prog e) = true /\
            (forall t, In t (need_ts (e_prog e)) -> exists m, In m g /\ n_ref m = t /\ C g m) /\
            (forall t, In t (allof_ts (e_prog e)) ->
               exists m j e', In m g /\ n_ref m = t /\ C g m /\ n_top m = TModel j /\ nth_error (n_entries m) j = Some e' /\ Pn g k' e')
  end.
Definition P (g : graph) (e : entry) : Prop := exists k, Pn g k e.

Lemma Pn_le g : forall k k' e, (k <= k')%nat -> Pn g k e -> Pn g k' e.
Proof.
  induction k as [|k IH]; intros k' e Hle H; [destruct H|]. destruct k' as [|k']; [lia|]. destruct H as (A & B & D).
  split; [exact A|]. split; [exact B|]. intros t Ht. destruct (D t Ht) as [m [j [e' (M1 & M2 & M3 & M4 & M5 & M6)]]].
  exists m, j, e'. repeat (split; [assumption|]). apply (IH k'); [lia|exact M6].
Qed.

Lemma P_intro g e : static_ok_p (e_prog e) = true ->
  (forall t, In t (need_ts (e_prog e)) -> exists m, In m g /\ n_ref m = t /\ C g m) ->
  (forall t, In t (allof_ts (e_prog e)) ->
     exists m j e', In m g /\ n_ref m = t /\ C g m /\ n_top m = TModel j /\ nth_error (n_entries m) j = Some e' /\ P g e') -> P g e.
Proof.
  intros H1 H2 H3.
  destruct (finite_rank (fun k t => exists m j e', In m g /\ n_ref m = t /\ C g m /\ n_top m = TModel j /\
                                      nth_error (n_entries m) j = Some e' /\ Pn g k e') (allof_ts (e_prog e))) as [K HK].
  - intros k k' t Hle [m [j [e' (A1 & A2 & A3 & A4 & A5 & A6)]]]. exists m, j, e'.
    repeat (split; [assumption|]). eapply Pn_le; eauto.
  - intros t Ht. destruct (H3 t Ht) as [m [j [e' (A1 & A2 & A3 & A4 & A5 & [k A6])]]]. exists k, m, j, e'. auto 6.
  - exists (S K). cbn [Pn]. auto.
Qed.

Lemma find_node_spec g r n : NoDup (map n_ref g) -> In n g -> n_ref n = r -> find_node g r = Some n.
Proof.
  induction g as [|a g IH]; cbn [map find_node]; intros Hnd Hn E; [contradiction|].
  inversion Hnd as [|? ? Hni Hnd']; subst. destruct Hn as [->|Hn].
  - now rewrite N.eqb_refl.
  - destruct (N.eqb_spec (n_ref a) (n_ref n)) as [Eq|Ne]; [|now apply IH].
    exfalso. apply Hni. rewrite Eq. now apply in_map.
Qed.

Lemma g_allof_direct_spec g : g_allof_direct g = true ->
  forall n p i t rs rc, In n g -> prog_of n p -> In i p -> i_op i = OAllOf t rs rc ->
  forall m, find_node g t = Some m -> is_twrap m = false.
Proof.
  unfold g_allof_direct. rewrite forallb_forall. intros H n p i t rs rc Hn Hp Hi Ho m Hf.
  specialize (H p (all_progs_in g n p Hn Hp)). rewrite forallb_forall in H. specialize (H _ Hi). rewrite Ho, Hf in H.
  now apply negb_true_iff in H.
Qed.

Lemma allof_ts_iff p t : In t (allof_ts p) <-> exists i rs rc, In i p /\ i_op i = OAllOf t rs rc.
Proof.
  unfold allof_ts. rewrite in_flat_map. split.
  - intros [i [Hi Ht]]. destruct (i_op i) eqn:E; try contradiction. destruct Ht as [<-|[]]. eauto.
  - intros (i & rs & rc & Hi & E). exists i. split; [exact Hi|]. rewrite E. now left.
Qed.

Section Process.
  Variable g : graph.
  Hypothesis Hwf : wf_graph g = true.
  Hypothesis Hdir : g_allof_direct g = true.
  Let s1 := r_st (create_loop g).

  Lemma proc_success_P s q sx :
    s_cbr s = s_cbr s1 -> entry_of g (q_entry q) ->
    (forall t, In t (s_done s) -> forall m j e', In m g -> n_ref m = t -> n_top m = TModel j -> nth_error (n_entries m) j = Some e' -> P g e') ->
    exec ctx_proc s (e_prog (q_entry q)) = (sx, None) -> P g (q_entry q).
  Proof using Hwf Hdir.
    intros Hc [nq [Hnq Heq]] Hdone E.
    destruct (wf_graph_spec _ Hwf) as [Hnd Hwn].
    destruct (create_sound g) as [_ CS]. destruct (create_own g Hwf) as (_ & _ & O3). change (created g) with s1 in CS, O3.
    apply P_intro.
    - apply forallb_forall. intros i Hi. pose proof (exec_ok_static _ _ _ _ E i Hi) as W. now destruct (i_op i).
    - intros t Ht. destruct (need_ts_edges _ _ Ht) as [k [rs He]].
      destruct (exec_done _ _ _ _ E) as (D1 & _). destruct (D1 _ _ _ He) as [Hh _].
      destruct (exec_frame _ _ _ _ _ E) as (F1 & _). rewrite F1, Hc in Hh.
      destruct (CS t Hh) as [m (M1 & M2 & M3 & M4)]. exists m. auto.
    - intros t Ht. apply allof_ts_iff in Ht. destruct Ht as (i & rs & rc & Hi & Ho).
      pose proof (exec_ok_static _ _ _ _ E i Hi) as W. rewrite Ho, Hc in W. destruct W as [[e' Hl] Hm].
      assert (Hh : has (s_cbr s1) t = true) by (apply has_lookup; eauto).
      destruct (CS t Hh) as [m (M1 & M2 & M3 & M4)].
      assert (Htw : is_twrap m = false).
      { apply (g_allof_direct_spec g Hdir nq (e_prog (q_entry q)) i t rs rc Hnq
                 (or_intror (ex_intro _ (q_entry q) (conj Heq eq_refl))) Hi Ho m).
        now apply find_node_spec. }
      subst t. destruct (n_top m) as [j|t'|] eqn:Etop.
      + destruct (nth_error (n_entries m) j) as [e2|] eqn:En.
        * exists m, j, e2. repeat (split; [auto|]). apply mem_in in Hm. eapply Hdone; eauto.
        * rewrite (O3 m M1 Hh) in Hl; [discriminate|]. right. eauto.
      + unfold is_twrap in Htw. rewrite Etop in Htw. discriminate.
      + rewrite (O3 m M1 Hh) in Hl; [discriminate|now left].
  Qed.

  Definition inv_P (s : st) : Prop :=
    s_cbr s = s_cbr s1 /\ s_queue s = s_queue s1 /\
    (forall t, In t (s_done s) -> forall m j e', In m g -> n_ref m = t -> n_top m = TModel j -> nth_error (n_entries m) j = Some e' -> P g e').
  Definition Qp (q : qitem) (s : st) : Prop :=
    P g (q_entry q) /\ prog_done [] (e_prog (q_entry q)) s /\ forall r, q_owner q = Some r -> In r (s_done s).

  (* soundness of the process phase and its accounting; the equivalence is process_failed_iff *)
  Lemma process_lfp :
    let pl := process_loop s1 in
    inv_P (r_st pl) /\
    (forall q, In q (s_queue s1) -> Qp q (r_st pl) \/ (exists c, In (q, c) (r_retry pl)) \/ (exists c, In (q, c) (r_final pl))).
  Proof using Hwf Hdir.
    cbn zeta.
    destruct (provenance g) as [[Q1 _] _]. destruct (create_own g Hwf) as (O1 & _). change (created g) with s1 in Q1, O1.
    assert (P_step : forall s x s' o, In x (s_queue s1) -> proc_try s x = (s', o) -> inv_P s -> inv_P s').
    { intros s x s' o Hx Ht (I1 & I2 & I3). destruct (proc_try_keeps _ _ _ _ Ht) as (A1 & A2 & _).
      split; [congruence|]. split; [congruence|]. destruct (proc_try_spec _ _ _ _ Ht) as (sx & E & ->).
      destruct o as [c|]; cbn [s_done revert]; [exact I3|].
      destruct (exec_frame _ _ _ _ _ E) as (_ & F2 & _). rewrite F2.
      destruct (q_owner x) as [r0|] eqn:Eo; [|exact I3].
      intros t [<-|Ht']; [|now apply I3]. intros m j e' Hm Hr Htop Hnth.
      rewrite <- (O1 x r0 Hx Eo m j e' Hm Hr Htop Hnth). apply (proc_success_P s x sx); auto. }
    assert (H0 : inv_P s1).
    { split; [reflexivity|]. split; [reflexivity|]. destruct (create_sound g) as [Hd _]. change (created g) with s1 in Hd. rewrite Hd. intros t []. }
    split; [exact (run_loop_inv proc_try is_rec inv_P s1 (s_queue s1) P_step H0)|].
    apply (run_loop_account proc_try is_rec inv_P Qp s1 (s_queue s1) P_step); [| |exact H0].
    - intros x s y s' o _ Ht (A & B & D). destruct (proc_try_keeps _ _ _ _ Ht) as (_ & _ & A3).
      split; [exact A|]. split; [eapply prog_done_ext; eauto|]. intros r0 Hr0. specialize (D r0 Hr0).
      destruct (proc_try_spec _ _ _ _ Ht) as (sx & E & ->). destruct o; cbn [s_done revert]; [exact D|].
      destruct (exec_frame _ _ _ _ _ E) as (_ & F2 & _). rewrite F2. destruct (q_owner y); [now right|exact D].
    - intros s x s' Hx Ht (I1 & I2 & I3). destruct (proc_try_spec _ _ _ _ Ht) as (sx & E & Es). split; [|split].
      + apply (proc_success_P s x sx); auto.
      + exact (proc_try_succ _ _ _ Ht).
      + intros r0 Hr0. subst s'. cbn [s_done]. rewrite Hr0. now left.
  Qed.
End Process.

Section ProcessComplete.
  Variable g : graph.
  Hypothesis Hwf : wf_graph g = true.
  Hypothesis Hdir : g_allof_direct g = true.
  Hypothesis Hpl : g_plain g = true.
  Hypothesis Hdup : g_no_dup_error g = true.
  Let s1 := r_st (create_loop g).
  Let pl := process_loop s1.

  (* completeness: a model whose derivation exists is processed: it is in neither error list *)
  Lemma process_complete : forall k q, In q (s_queue s1) -> Pn g k (q_entry q) ->
    (forall c, ~ In (q, c) (r_retry pl)) /\ (forall c, ~ In (q, c) (r_final pl)).
  Proof using Hwf Hdir Hpl Hdup.
    destruct (process_lfp g Hwf Hdir) as [_ ACC]. cbn zeta in ACC.
    destruct (process_frame (created g)) as (IP1 & _). fold (processed g) in IP1.
    destruct (provenance g) as [[Q1 _] _]. destruct (create_own g Hwf) as (_ & O2 & _).
    induction k as [|k IH]; intros q Hq Hk; [destruct Hk|]. destruct Hk as (Hst & Hne & Hal).
    destruct (Q1 q Hq) as [nq [Hnq Heq]].
    assert (Hplain : forall i, In i (e_prog (q_entry q)) -> instr_plain i = true).
    { intros i. apply (g_plain_spec g Hpl nq). exact Hnq. right. eauto. }
    unfold static_ok_p in Hst. rewrite forallb_forall in Hst.
    split; intros c Hc.
    - destruct (process_retry_fails_at_end (created g) q c Hc) as [_ (i & c0 & Hi & He & Hrep)]. fold (processed g) in He.
      specialize (Hst i Hi).
      assert (Hnm : is_mint (i_op i) = false).
      { destruct (build_facts g) as [es (F1 & _ & _ & _ & _ & _ & F5 & _)].
        destruct (F5 q c) as [er (E1 & _ & _ & E4 & _)]; [apply in_or_app; now right|].
        apply (plain_failure_not_mint g i _ c0 er Hdup (Hplain i Hi) He); [rewrite F1; apply in_or_app; now right|congruence]. }
      (* a parent named in allOf is created, a model, and processed (by induction) *)
      assert (Hallof : forall t rs rc, i_op i = OAllOf t rs rc ->
                (exists e', lookup (s_cbr (processed g)) t = Some (PModel e')) /\ mem t (s_done (processed g)) = true).
      { intros t rs rc Ho. destruct (Hal t) as [m [j [e' (M1 & M2 & M3 & M4 & M5 & M6)]]]; [apply allof_ts_iff; eauto|].
        pose proof (create_complete g Hpl Hdup m M3) as Hc1. destruct (O2 m j e' M1 Hc1 M4 M5) as [Hl Hitem].
        rewrite IP1, <- M2. split; [eauto|].
        destruct (IH _ Hitem M6) as [NR NF].
        destruct (ACC _ Hitem) as [(_ & _ & Hown)|[[c1 Hx]|[c1 Hx]]]; [|destruct (NR _ Hx)|destruct (NF _ Hx)].
        apply mem_in. exact (Hown _ eq_refl). }
      remember (i_op i) as o eqn:Eo.
      destruct He as [c1|k' t rs nm rc H|t rs rc H|t rs rc H|t rs rc e H M|c1 q0|c1 v];
        [discriminate Hst| | | | |discriminate Hnm|discriminate Hnm].
      + destruct (Hne t) as [m (M1 & M2 & M3)]; [apply need_ts_iff; repeat eexists; eauto|].
        pose proof (create_complete g Hpl Hdup m M3) as Hc1. rewrite IP1, <- M2 in H.
        apply has_lookup in Hc1. destruct Hc1 as [v Hv]. congruence.
      + destruct (Hallof _ _ _ eq_refl) as [[e' Hl] _]. congruence.
      + destruct (Hallof _ _ _ eq_refl) as [[e' Hl] _]. congruence.
      + destruct (Hallof _ _ _ eq_refl) as [_ Hd]. congruence.
    - (* only "recursive" is final, and no plain instruction reports it *)
      apply run_loop_final in Hc. destruct Hc as (_ & Hf & s0 & Hs). apply N.eqb_eq in Hf.
      destruct (proc_try s0 q) as [s0' o] eqn:Et. cbn in Hs. subst o. destruct (proc_try_spec _ _ _ _ Et) as (sx & E & _).
      destruct (exec_run _ _ _ _ _ E) as (i & c0 & Hi & He & Hrep). rewrite Hrep in Hf.
      exact (proj1 (plain_report i _ c0 (Hplain i Hi) He) Hf).
  Qed.

  (* the least fixed point of the process phase (C08_process_lfp): a queued model is reported as failed exactly when it has no derivation *)
  Lemma process_failed_iff q : In q (s_queue s1) ->
    ((exists c, In (q, c) (r_final pl ++ r_retry pl)) <-> ~ P g (q_entry q)).
  Proof using Hwf Hdir Hpl Hdup.
    intro Hq. destruct (process_lfp g Hwf Hdir) as [_ ACC]. cbn zeta in ACC. split.
    - intros [c Hc] [k Hk]. destruct (process_complete k q Hq Hk) as [NR NF].
      apply in_app_or in Hc. destruct Hc as [Hc|Hc]; [eapply NF|eapply NR]; eauto.
    - intro HnP. destruct (ACC q Hq) as [(HP & _)|[[c Hc]|[c Hc]]]; [contradiction| |]; exists c; apply in_or_app; [now right|now left].
  Qed.
End ProcessComplete.

(* locality: derivations only look at what a component reaches.  reaches g b r: r reaches b *)
Inductive reaches (g : graph) (b : ref) : ref -> Prop :=
| reach_here : reaches g b b
| reach_edge r n e : In n g -> n_ref n = r -> In e (node_edges n) -> reaches g b (snd (fst e)) -> reaches g b r.

(* g and g' are the same document except for the description of component b *)
Definition agree_off (b : ref) (g g' : graph) : Prop :=
  (forall n, In n g -> n_ref n <> b -> In n g') /\ (forall n, In n g' -> n_ref n <> b -> In n g).
Lemma agree_off_sym b g g' : agree_off b g g' -> agree_off b g' g.
Proof. intros [A B]. split; assumption. Qed.

Lemma reaches_transfer b g g' : agree_off b g g' -> forall r, reaches g b r -> reaches g' b r.
Proof.
  intros [A _] r H. induction H as [|r n e Hn Hr He _ IH]; [constructor|].
  destruct (N.eq_dec r b) as [->|Hne]; [constructor|]. eapply reach_edge; [apply A; [exact Hn|congruence]|exact Hr|exact He|exact IH].
Qed.

(* a component that does not reach b is not b, is in both documents, and its edges lead to components that do not reach b *)
Lemma unaffected b g g' n : agree_off b g g' -> In n g -> ~ reaches g b (n_ref n) ->
  In n g' /\ ~ reaches g' b (n_ref n) /\ forall k t rs, In (k, t, rs) (node_edges n) -> ~ reaches g b t.
Proof.
  intros Hag Hn Hu. split; [apply Hag; [exact Hn|]; intro X; apply Hu; rewrite X; constructor|]. split.
  - intro X. apply Hu. exact (reaches_transfer b g' g (agree_off_sym _ _ _ Hag) _ X).
  - intros k t rs He Hr. apply Hu. exact (reach_edge g b _ n (k, t, rs) Hn eq_refl He Hr).
Qed.

Lemma target_unaffected b g g' n m k t rs : agree_off b g g' -> In n g -> ~ reaches g b (n_ref n) ->
  In (k, t, rs) (node_edges n) -> In m g -> n_ref m = t -> In m g' /\ ~ reaches g b (n_ref m).
Proof.
  intros Hag Hn Hu He Hm <-. destruct (unaffected b g g' n Hag Hn Hu) as (_ & _ & Hedge). pose proof (Hedge _ _ _ He) as Hum.
  split; [apply (unaffected b g g' m Hag Hm Hum)|exact Hum].
Qed.

Lemma need_ts_node_edge n p t : prog_of n p -> In t (need_ts p) -> exists k rs, In (k, t, rs) (node_edges n).
Proof.
  intros Hp H. apply need_ts_iff in H. destruct H as (i & k & rs & nm & rc & Hi & E). exists k, rs.
  apply (prog_of_edges n p i _ Hp Hi). rewrite E. now left.
Qed.
Lemma allof_ts_node_edge n p t : prog_of n p -> In t (allof_ts p) -> exists rs, In (EAllOf, t, rs) (node_edges n).
Proof.
  intros Hp H. apply allof_ts_iff in H. destruct H as (i & rs & rc & Hi & E). exists rs.
  apply (prog_of_edges n p i _ Hp Hi). rewrite E. now left.
Qed.

Lemma C_local b g g' : agree_off b g g' -> forall k n, Cn g k n -> ~ reaches g b (n_ref n) -> Cn g' k n.
Proof.
  intros Hag. induction k as [|k IH]; intros n H Hu; [destruct H|]. destruct H as (A & B & D & E).
  cbn [Cn]. split; [apply (unaffected b g g' n Hag A Hu)|]. split; [exact B|]. split; [exact D|].
  intros t Ht. destruct (E t Ht) as [m (M1 & M2 & M3)]. destruct (need_ts_node_edge n _ t (or_introl eq_refl) Ht) as [kk [rs He]].
  destruct (target_unaffected b g g' n m kk t rs Hag A Hu He M1 M2) as [M1' Hum].
  exists m. split; [exact M1'|]. split; [exact M2|]. now apply IH.
Qed.

Lemma P_local b g g' : agree_off b g g' -> forall k n e, In n g -> In e (n_entries n) -> ~ reaches g b (n_ref n) -> Pn g k e -> Pn g' k e.
Proof.
  intros Hag. induction k as [|k IH]; intros n e Hn He Hu H; [destruct H|]. destruct H as (A & B & D).
  assert (Hp : prog_of n (e_prog e)) by (right; eauto).
  cbn [Pn]. split; [exact A|]. split.
  - intros t Ht. destruct (B t Ht) as [m (M1 & M2 & [kc M3])]. destruct (need_ts_node_edge n _ t Hp Ht) as [kk [rs Hx]].
    destruct (target_unaffected b g g' n m kk t rs Hag Hn Hu Hx M1 M2) as [M1' Hum].
    exists m. split; [exact M1'|]. split; [exact M2|]. exists kc. exact (C_local b g g' Hag kc m M3 Hum).
  - intros t Ht. destruct (D t Ht) as [m [j [e' (M1 & M2 & [kc M3] & M4 & M5 & M6)]]]. destruct (allof_ts_node_edge n _ t Hp Ht) as [rs Hx].
    destruct (target_unaffected b g g' n m EAllOf t rs Hag Hn Hu Hx M1 M2) as [M1' Hum].
    exists m, j, e'. split; [exact M1'|]. split; [exact M2|].
    split; [exists kc; exact (C_local b g g' Hag kc m M3 Hum)|]. split; [exact M4|]. split; [exact M5|].
    exact (IH m e' M1 (nth_error_In _ _ M5) Hum M6).
Qed.

Lemma g_contain_spec g : g_contain g = true ->
  wf_graph g = true /\ g_plain g = true /\ g_allof_direct g = true /\ g_no_dup_error g = true /\ g_no_union_edge_to_failing g = true.
Proof. unfold g_contain. rewrite !andb_true_iff. tauto. Qed.

Definition Surv (g : graph) (r : ref) : Prop := has (res_cbr (build_schemas g)) r = true.

Lemma failed_entry_removed g : g_contain g = true ->
  forall n e, In n g -> In e (n_entries n) -> has (s_cbr (created g)) (n_ref n) = true -> ~ P g e -> ~ Surv g (n_ref n).
Proof.
  intros Hg n e Hn He Hc HnP Hs. destruct (g_contain_spec _ Hg) as (Hwf & Hpl & Hdir & Hdup & Hun).
  destruct (wf_graph_spec _ Hwf) as [Hnd Hwn]. destruct (wf_node_spec n (Hwn n Hn)) as (Wpush & _).
  destruct (In_nth_error _ _ He) as [j Hj]. destruct (Wpush j e Hj) as [i [Hi Ho]].
  destruct (create_phase_spec g Hnd n Hn Hc) as (_ & _ & D3 & _). destruct (D3 i _ _ _ Hi Ho Hj) as [ow Hq].
  destruct (proj2 (process_failed_iff g Hwf Hdir Hpl Hdup _ Hq) HnP) as [c Hm].
  unfold Surv in Hs. rewrite (failed_model_removed g Hwf Hun n (mkQ ow (e_name e) e) c Hn He Hm) in Hs. discriminate.
Qed.

Section Transfer.
  Variables (b : ref) (h h' : graph).
  Hypothesis Hag : agree_off b h h'.
  Hypothesis Hgh : g_contain h = true.
  Hypothesis Hgh' : g_contain h' = true.

  Lemma created_transfer n : In n h -> ~ reaches h b (n_ref n) ->
    has (s_cbr (created h)) (n_ref n) = true -> has (s_cbr (created h')) (n_ref n) = true.
  Proof.
    intros Hn Hu Hc. destruct (g_contain_spec _ Hgh) as (Hwf & _).
    destruct (g_contain_spec _ Hgh') as (_ & Hpl' & _ & Hdup' & _). destruct (wf_graph_spec _ Hwf) as [Hnd _].
    destruct (create_sound h) as [_ CS]. destruct (CS _ Hc) as [n' (N1 & N2 & N3 & [k N4])].
    rewrite (ref_inj h Hnd n' n N1 Hn N2) in N4.
    apply (create_complete h' Hpl' Hdup'). exists k. exact (C_local b h h' Hag k n N4 Hu).
  Qed.

  (* what the cascade of h deletes among the components that do not reach b, the run on h' does not keep either *)
  Lemma removed_transfer q c : In (q, c) (failed h) ->
    forall r, Reach (s_deps (processed h)) (s_cbr (processed h)) (e_roots (q_entry q)) r -> ~ reaches h b r -> ~ Surv h' r.
  Proof.
    intros Hm r HR. destruct (g_contain_spec _ Hgh) as (Hwf & Hpl & Hdir & Hdup & Hun).
    destruct (g_contain_spec _ Hgh') as (Hwf' & _ & _ & _ & Hun').
    destruct (wf_graph_spec _ Hwf) as [_ Hwn]. destruct (provenance h) as [[Q1 _] ID].
    induction HR as [r Hin Hh|t r HRt IHt Hin Hh]; intros Hu Hs.
    - (* r is a root of the model that failed: the model has no derivation in either document *)
      pose proof (failed_queued h q c Hm) as Hq. destruct (Q1 q Hq) as [m [Hm1 Hm2]].
      destruct (wf_node_spec m (Hwn m Hm1)) as (_ & Wself & _). rewrite (Wself _ r Hm2 Hin) in *.
      destruct (process_frame (created h)) as (P1 & _). fold (processed h) in P1. rewrite P1 in Hh.
      destruct (unaffected b h h' m Hag Hm1 Hu) as (Hm' & Hu' & _).
      apply (failed_entry_removed h' Hgh' m (q_entry q) Hm' Hm2 (created_transfer m Hm1 Hu Hh)); [|exact Hs].
      intros [k Hk]. apply (proj1 (process_failed_iff h Hwf Hdir Hpl Hdup _ Hq)); [eauto|].
      exists k. exact (P_local b h' h (agree_off_sym _ _ _ Hag) k m _ Hm' Hm2 Hu' Hk).
    - (* r depends on a deleted reference t: the dependency was recorded by an edge of r itself to t *)
      destruct (ID _ _ Hin) as (m & p & i & Hm1 & Hp & Hi & [(k & rs & He & Hx & _)|(c0 & _ & Ex)]); [|discriminate].
      destruct (wf_node_spec m (Hwn m Hm1)) as (_ & _ & Wself). specialize (Wself p i Hp Hi).
      assert (Hr : r = n_ref m).
      { destruct (i_op i); try contradiction; destruct He as [E|[]]; injection E as <- <- <-; cbn in Wself;
          unfold roots_self in Wself; rewrite forallb_forall in Wself; specialize (Wself _ Hx); now apply N.eqb_eq in Wself. }
      subst r. pose proof (prog_of_edges m p i _ Hp Hi He) as He'.
      destruct (unaffected b h h' m Hag Hm1 Hu) as (Hm' & _ & Hedge).
      (* if m survived in h', its edge to t would point at a survivor (removal_closed), but t does not survive there *)
      exact (IHt (Hedge _ _ _ He') (removal_closed h' Hwf' Hun' m Hm' Hs _ He')).
  Qed.
End Transfer.

(* containment, one direction: a survivor that does not reach b survives whatever b is replaced by *)
Lemma surv_transfer b h h' : agree_off b h h' -> g_contain h = true -> g_contain h' = true ->
  forall n, In n h -> ~ reaches h b (n_ref n) -> Surv h (n_ref n) -> Surv h' (n_ref n).
Proof.
  intros Hag Hgh Hgh' n Hn Hu Hs.
  pose proof (created_transfer b h h' Hag Hgh Hgh' n Hn Hu (survivor_created h _ Hs)) as Hc'.
  destruct (process_frame (created h')) as (P1' & _).
  unfold Surv. destruct (has (res_cbr (build_schemas h')) (n_ref n)) eqn:E; [reflexivity|exfalso].
  rewrite <- P1' in Hc'. destruct (removal_exact h' _ Hc' E) as [q [c [Hm HR]]].
  (* the transfer lemma with the roles of the two documents exchanged *)
  destruct (unaffected b h h' n Hag Hn Hu) as (_ & Hu' & _).
  exact (removed_transfer b h' h (agree_off_sym _ _ _ Hag) Hgh' Hgh q c Hm _ HR Hu' Hs).
Qed.

(* containment (C08): replace the description of component b by
   anything (in particular by a version with a bad piece in it).  Under the guards on both documents, a component that does
   not reach b through references survives in the one exactly when it survives in the other. *)
Theorem containment b g g' : agree_off b g g' -> g_contain g = true -> g_contain g' = true ->
  forall n, In n g -> ~ reaches g b (n_ref n) -> (Surv g (n_ref n) <-> Surv g' (n_ref n)).
Proof.
  intros Hag Hg Hg' n Hn Hu. split; [now apply (surv_transfer b g g')|].
  destruct (unaffected b g g' n Hag Hn Hu) as (Hn' & Hu' & _). now apply (surv_transfer b g' g (agree_off_sym _ _ _ Hag)).
Qed.

(* survivors only reach survivors (iterating removal_closed) *)
Lemma surv_reach_closed g b : wf_graph g = true -> g_no_union_edge_to_failing g = true ->
  forall r, reaches g b r -> Surv g r -> Surv g b.
Proof.
  intros Hwf Hun r H. induction H as [|r n e Hn Hr He _ IH]; [auto|]. intro Hs. apply IH.
  subst r. exact (removal_closed g Hwf Hun n Hn Hs e He).
Qed.

(* ... so when b itself does not survive in g' (it carries the bad piece), the survivors of g' are exactly the survivors of g
   minus what reaches b: nothing else is lost, nothing else appears *)
Theorem containment_exact b g g' : agree_off b g g' -> g_contain g = true -> g_contain g' = true -> ~ Surv g' b ->
  forall n, In n g -> (Surv g' (n_ref n) <-> Surv g (n_ref n) /\ ~ reaches g b (n_ref n)).
Proof.
  intros Hag Hg Hg' Hb n Hn. destruct (g_contain_spec _ Hg') as (Hwf' & _ & _ & _ & Hun'). split.
  - intro Hs.
    assert (Hu' : ~ reaches g' b (n_ref n)) by (intro X; apply Hb; eapply surv_reach_closed; eauto).
    assert (Hu : ~ reaches g b (n_ref n)) by (intro X; apply Hu'; eapply reaches_transfer; eauto).
    split; [|exact Hu]. now apply (containment b g g' Hag Hg Hg' n Hn Hu).
  - intros [Hs Hu]. now apply (containment b g g' Hag Hg Hg' n Hn Hu).
Qed.

(* non-vacuity: the valid document A, L = array of A, N{l: L}, Z and the same document with a bad property in A *)
Definition valid_item : graph :=
  [mkN 1 false (TModel 0%nat) [mkI (OMintModel 1 (Some 0%nat)) 0] [mkE 1 1 [RRef 1; RCls 1] []];
   mkN 2 false TOther [mkI (ONeed EItem 1 [RRef 2] 0 false) 0] [];
   mkN 3 false (TModel 0%nat) [mkI (OMintModel 2 (Some 0%nat)) 0] [mkE 3 2 [RRef 3; RCls 2] [mkI (ONeed EProp 2 [RRef 3; RCls 2] 0 false) 0]];
   mkN 4 false (TModel 0%nat) [mkI (OMintModel 3 (Some 0%nat)) 0] [mkE 4 3 [RRef 4; RCls 3] []]].
Example containment_nonvacuous :
  g_contain valid_item = true /\ g_contain witness_item = true /\ agree_off 1 valid_item witness_item /\
  survivors valid_item = [4; 3; 2; 1] /\ survivors witness_item = [4].
Proof.
  split; [vm_compute; reflexivity|]. split; [vm_compute; reflexivity|]. split; [|split; vm_compute; reflexivity].
  split; intros n Hn Hne; cbn in Hn; destruct Hn as [<-|[<-|[<-|[<-|[]]]]]; cbn in *; try congruence; tauto.
Qed.
