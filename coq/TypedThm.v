(* TypedThm.v — proofs about Typed.v (C11): a well-typed value is an instance of its annotation and is accepted by the encoder
   (an induction of its own); that the decoder produces well-typed values is a corollary of CodecThm.rt_strong. *)
From Coq Require Import NArith ZArith List Bool Lia.
Import ListNotations.
Require Import OPC.gen.GenKinds OPC.Uni OPC.Names OPC.NamesThm OPC.Codec OPC.MapsThm OPC.CodecThm OPC.Types OPC.Typed.
Open Scope N_scope.

Lemma existsb_flat_map {A B} (p : B -> bool) (g : A -> list B) l :
  existsb p (flat_map g l) = existsb (fun x => existsb p (g x)) l.
Proof. induction l as [|x l IHl]; simpl; [reflexivity|]. now rewrite existsb_app, IHl. Qed.

Lemma inh_type_of v k req : inhabits v (type_of k req) = existsb (inhabits v) (if req then alts k else TyUnset :: alts k).
Proof.
  unfold type_of. destruct (if req then alts k else TyUnset :: alts k) as [|t [|t' L]]; try reflexivity.
  cbn [existsb]. now rewrite orb_false_r.
Qed.

Lemma inh_req_mono v k req : inhabits v (type_of k true) = true -> inhabits v (type_of k req) = true.
Proof. rewrite !inh_type_of. destruct req; auto. cbn [existsb]. intros ->. apply orb_true_r. Qed.

Lemma type_of_list inner : type_of (KList inner) true = TyList (type_of inner true).
Proof. reflexivity. Qed.

Lemma wt_props_In w n req k fs : forall ps, wt_props w ps fs = true -> In (n, (req, k)) ps ->
  exists v, lookf n fs = Some v /\ wt_field w k req v = true.
Proof.
  induction ps as [|[n' [req' k']] ps IH]; intros H Hin; [destruct Hin|]. rewrite wt_props_cons in H.
  destruct (lookf n' fs) as [v|] eqn:El; [|discriminate H]. apply andb_true_iff in H as [H1 H2].
  destruct Hin as [Hin|Hin]; [|auto]. injection Hin as -> -> ->. eauto.
Qed.

(* with distinct names, the attribute found by name is the only one of that name *)
Lemma lookf_In n v : forall fs ps, names_distinct ps = true -> map fst fs = map fst ps -> In (n, v) fs -> lookf n fs = Some v.
Proof.
  induction fs as [|[n0 v0] fs IH]; intros [|[n0' x] ps] Hnd Hk Hin; try destruct Hin; try discriminate Hk.
  - injection H as -> ->. apply lookf_hit.
  - injection Hk as <- Hk. rewrite names_distinct_cons in Hnd. apply andb_true_iff in Hnd as [Hn Hnd].
    apply negb_true_iff, mem_str_false in Hn. rewrite <- Hk in Hn.
    rewrite lookf_skip; [eauto|]. intros <-. apply Hn. apply (in_map fst) in H. exact H.
Qed.

Theorem wt_inhabits : forall T f k v, wt T f k v = true -> inhabits v (type_of k true) = true.
Proof.
  intros T. induction f as [|f IH]; intros k v H; [discriminate H|].
  cbn [wt] in H. destruct k; cbn [wt_step] in H.
  (* KAny ... KFile: wt_step and inhabits read the same forms of v *)
  1-10: destruct v as [|j| | | | | |]; try discriminate H; try destruct j; try discriminate H; reflexivity.
  - destruct v as [|j| | | | | |]; try discriminate H.
    cbn [type_of alts inhabits existsb]. now rewrite H.
  - destruct v as [| | | | |c' x| |]; try discriminate H. apply andb_true_iff in H as [H _]. exact H.
  - destruct v as [|j| | | | | |]; try discriminate H. exact H.
  - rewrite type_of_list. cbn [inhabits]. destruct v as [|j| | | | |l|]; try discriminate H.
    + destruct j; try discriminate H. rewrite forallb_forall in H |- *. intros x Hx. apply IH. auto.
    + rewrite forallb_forall in H |- *. intros x Hx. apply IH. auto.
  - rewrite inh_type_of. cbn [alts]. rewrite existsb_flat_map.
    apply existsb_exists in H as (m & Hin & Hm). apply existsb_exists. exists m. split; auto.
    apply IH in Hm. now rewrite inh_type_of in Hm.
  - destruct v as [| | | | | | |c' fs ad]; try discriminate H. destruct (get_class T cls); [|discriminate H].
    apply andb_true_iff in H as [H _]. apply andb_true_iff in H as [H _]. exact H.
Qed.

Lemma wt_field_inhabits T f k req v : wt_field (wt T f) k req v = true -> inhabits v (type_of k req) = true.
Proof.
  intro H. apply wt_field_cases in H as [[-> ->]|[_ H]].
  - rewrite inh_type_of. reflexivity.
  - eapply inh_req_mono, wt_inhabits, H.
Qed.

Lemma map_opt_all {A B} (ff : A -> option B) l : (forall x, In x l -> exists y, ff x = Some y) -> exists r, map_opt ff l = Some r.
Proof.
  induction l as [|x l IH]; intro H; simpl; [eauto|].
  destruct (H x (or_introl eq_refl)) as (y & ->). destruct IH as (r & ->); [intros; apply H; now right|]. eauto.
Qed.

Lemma map_opt_snd_all {A B} (ff : A -> option B) (l : list (str * A)) :
  (forall k x, In (k, x) l -> exists y, ff x = Some y) -> exists r, map_opt_snd ff l = Some r.
Proof.
  induction l as [|[k x] l IH]; intro H; simpl; [eauto|].
  destruct (H k x (or_introl eq_refl)) as (y & ->). destruct IH as (r & ->); [intros; eapply H; right; eauto|]. eauto.
Qed.

Definition enc_good T g k v :=
  (exists j, enc T g k v = Some j) /\ forall req, exists j, enc_field (enc T g) k req v = Some (Some j).

Lemma enc_ok_good T g k v j : enc_ok T g k v j -> enc_good T g k v.
Proof. intros [He Hf]. split; eauto. Qed.

Section LevelE.
  Variables (T : ctable) (f : nat).
  Hypothesis HT : table_ok T = true.
  Hypothesis IH : forall g k v, (f <= g)%nat -> k_ok k = true -> wt T f k v = true -> enc_good T g k v.

  Lemma elem_enc g k v : (f <= g)%nat -> k_ok k = true -> wt T f k v = true ->
    exists j, (if has_transform k then enc T g k else plain) v = Some j.
  Proof.
    intros Hg Hk Hw. destruct (IH g k v Hg Hk Hw) as [(j & He) _]. exists j.
    destruct (has_transform k) eqn:Et; [exact He|]. eapply enc_plain; eauto.
  Qed.

  Lemma klist_enc g inner v : (f <= g)%nat -> k_ok inner = true -> wt T (S f) (KList inner) v = true ->
    enc_good T (S g) (KList inner) v.
  Proof.
    intros Hg Hk Hw. cbn [wt wt_step] in Hw.
    assert (He: exists j, enc T (S g) (KList inner) v = Some j).
    { destruct v as [|j| | | | |l|]; try discriminate Hw; [destruct j; try discriminate Hw|]; rewrite forallb_forall in Hw.
      - (* raw array *) rewrite enc_S_list. pose proof (fun x Hx => elem_enc g inner (PJ x) Hg Hk (Hw x Hx)) as Hel.
        destruct (has_transform inner); [cbn [items]|simpl; eauto].
        destruct (map_opt_all (enc T g inner) (map PJ l)) as (r & ->); [|simpl; eauto].
        intros x Hx. apply in_map_iff in Hx as (y & <- & Hy). auto.
      - (* list object *) rewrite enc_S_plist. destruct (map_opt_all (if has_transform inner then enc T g inner else plain) l) as (r & ->);
          [|simpl; eauto]. intros x Hx. apply elem_enc; auto. }
    destruct He as (j & He). now apply (enc_ok_good _ _ _ _ j), enc_ok_intro.
  Qed.

  Lemma field_enc g k req v : (f <= g)%nat -> k_ok k = true -> wt_field (wt T f) k req v = true ->
    exists o, enc_field (enc T g) k req v = Some o /\ (o = None <-> v = PUnset).
  Proof.
    intros Hg Hk Hw. apply wt_field_cases in Hw as [[-> ->]|[Hv Hw]].
    - exists None. split; [apply unset_not_encoded|tauto].
    - destruct (IH g k v Hg Hk Hw) as [_ Hf]. destruct (Hf req) as (j & Hj). exists (Some j). split; auto.
      split; [discriminate|contradiction].
  Qed.

  Lemma props_enc g : (f <= g)%nat -> forall ps fs, forallb (fun p => k_ok (snd (snd p))) ps = true ->
    wt_props (wt T f) ps fs = true -> exists kvs, enc_props (enc T g) ps fs = Some kvs.
  Proof.
    intro Hg. induction ps as [|[n [req k]] ps IHps]; intros fs Hk Hw; [simpl; eauto|].
    cbn [forallb snd] in Hk. apply andb_true_iff in Hk as [Hk1 Hk2].
    rewrite wt_props_cons in Hw. rewrite enc_props_cons.
    destruct (lookf n fs) as [v|]; [|discriminate Hw]. apply andb_true_iff in Hw as [Hw1 Hw2].
    destruct (field_enc g k req v Hg Hk1 Hw1) as (o & -> & _).
    destruct (IHps fs Hk2 Hw2) as (kvs & ->). eauto.
  Qed.

  Lemma kmodel_enc g c v : (f <= g)%nat -> wt T (S f) (KModel c) v = true -> enc_good T (S g) (KModel c) v.
  Proof.
    intros Hg Hw. destruct v as [| | | | | | |c' fs ad]; try discriminate Hw.
    destruct (wt_model_inv T f c c' fs ad Hw) as (cd & Ec & -> & Hwp & Had).
    destruct (table_cdef T c cd HT Ec) as (Hkp & _ & Hak).
    destruct (props_enc g Hg (c_props cd) fs Hkp Hwp) as (kvs & Hep).
    assert (Hb: exists b, enc_addl (enc T g) cd ad = Some b).
    { unfold enc_addl. destruct (c_addl cd) as [ak|]; [|eauto]. rewrite forallb_forall in Had.
      apply map_opt_snd_all. intros k x Hin. apply elem_enc; auto. exact (Had (k, x) Hin). }
    destruct Hb as (b & Hb). eapply enc_ok_good, enc_ok_intro; [reflexivity|].
    now rewrite enc_S_model, enc_obj_eq, Ec, Hep, Hb.
  Qed.

  Lemma union_enc g ms v : (f <= g)%nat -> k_ok (KUnion ms) = true -> existsb (fun m => wt T f m v) ms = true ->
    forall hi un, exists j, enc_union_loop (enc T g) ms hi un v = Some j.
  Proof.
    intros Hg Hk Hw hi un. apply existsb_exists in Hw as (mi & Hin & Hw).
    destruct (k_ok_union ms Hk) as (Hpd & Hmem). destruct (Hmem mi Hin) as [Hnu Hkmi].
    destruct (IH g mi v Hg Hkmi Hw) as [Hemi _].
    destruct f as [|f']; [discriminate Hw|]. destruct g as [|g']; [lia|]. cbn [wt] in Hw.
    now rewrite (union_enc_member T _ g' ms mi v Hpd Hin Hnu Hkmi Hw).
  Qed.

  Lemma kunion_enc g ms v : (f <= g)%nat -> k_ok (KUnion ms) = true -> wt T (S f) (KUnion ms) v = true ->
    enc_good T (S g) (KUnion ms) v.
  Proof.
    intros Hg Hk Hw. assert (Hv: v <> PUnset) by (intros ->; rewrite wt_unset in Hw; discriminate).
    cbn [wt wt_step] in Hw. split.
    - rewrite enc_S_union. now apply union_enc.
    - intro req. rewrite enc_field_union by exact Hv.
      destruct (union_enc (S g) ms v (le_S _ _ Hg) Hk Hw (negb req) false) as (j & ->). simpl. eauto.
  Qed.
End LevelE.

Theorem enc_strong T : table_ok T = true ->
  forall f g k v, (f <= g)%nat -> k_ok k = true -> wt T f k v = true -> enc_good T g k v.
Proof.
  intro HT. induction f as [|f IHf]; intros g k v Hg Hk Hw; [discriminate Hw|].
  destruct g as [|g]; [lia|]. assert (Hg': (f <= g)%nat) by lia.
  destruct k.
  (* the thirteen kinds without a loop: a well-typed value has one of a few forms, and enc computes on each *)
  1-13: cbn [wt wt_step] in Hw; destruct v as [|j|s|s|s|c' x|l|c' fs ad]; try discriminate Hw;
        eapply enc_ok_good, enc_ok_intro; reflexivity.
  - apply (klist_enc T f IHf); auto.
  - apply (kunion_enc T f IHf); auto.
  - apply (kmodel_enc T f HT IHf); auto.
Qed.

(* the encoder accepts every well-typed value: to_dict / transform never raises on it and yields plain JSON *)
Theorem annotation_accepted_by_encoder : forall T f k v,
  table_ok T = true -> k_ok k = true -> wt T f k v = true -> exists j, enc T f k v = Some j.
Proof.
  intros T f k v HT Hk Hw. now destruct (enc_strong T HT f f k v (le_n f) Hk Hw).
Qed.

(* ... and as an attribute (optional attributes may also hold UNSET, which is omitted) *)
Theorem field_accepted_by_encoder : forall T f k req v,
  table_ok T = true -> k_ok k = true -> wt_field (wt T f) k req v = true ->
  exists o, enc_field (enc T f) k req v = Some o /\ (o = None <-> v = PUnset).
Proof.
  intros T f k req v HT Hk Hw. apply (field_enc T f (enc_strong T HT f)); auto.
Qed.

(* what the decoder produces from schema-valid data is well-typed (so the two directions compose); the round trip's induction
   establishes it on the way *)
Theorem decoded_is_well_typed : forall orc T f k j v,
  table_ok T = true -> k_ok k = true -> wf_json j = true ->
  valid orc T f k j = true -> dec orc T f k j = Some v -> wt T f k v = true.
Proof.
  intros orc T f k j v HT Hk Hw Hv Hd. destruct (rt_strong orc T HT f f k j (le_n f) Hk Hw Hv) as (v' & Hd' & Hwt & _).
  rewrite Hd in Hd'. now injection Hd' as <-.
Qed.

(* s: the entry popped from the dict, m_get name m *)
Lemma field_wt orc T f k req s v : table_ok T = true -> k_ok k = true ->
  match s with Some j => wf_json j = true /\ valid orc T f k j = true | None => True end ->
  dec_field (dec orc T f) k req s = Some v -> wt_field (wt T f) k req v = true.
Proof.
  intros HT Hk Hs Hd. destruct s as [j|].
  - destruct Hs as [Hw Hv].
    destruct (field_rt orc T f (rt_strong orc T HT f) f k req j (le_n f) Hk Hw Hv) as (v' & Hd' & Hwt & _).
    rewrite Hd in Hd'. now injection Hd' as <-.
  - unfold dec_field in Hd. destruct req; [discriminate Hd|]. now injection Hd as <-.
Qed.

(* the guard is necessary: anyOf[array of date, array of string] admits ["hello"] (a list of str) but to_dict raises *)
Theorem union_encoder_rejects_refuted : exists T f k v,
  table_ok T = true /\ k_ok k = false /\ wt T f k v = true /\ enc T f k v = None.
Proof.
  exists [], 3%nat, (KUnion [KList KDate; KList KStr]), (PList [PJ (JStr w_hello)]).
  repeat (split; [vm_compute; reflexivity|]). vm_compute; reflexivity.
Qed.

Definition w_v3 : pv :=
  Eval vm_compute in match dec w_orc w_T3 5 (KModel 1) w_j3 with Some v => v | None => PUnset end.

Example wt_nonvacuous : exists T f k v, table_ok T = true /\ k_ok k = true /\ wt T f k v = true /\
  (exists c fs ad, v = PObj c fs ad /\ 2 <= length fs)%nat.
Proof.
  exists w_T3, 5%nat, (KModel 1), w_v3.
  repeat (split; [vm_compute; reflexivity|]). do 3 eexists. split; [reflexivity|]. simpl. lia.
Qed.

(* the witness is accepted by the encoder, as the theorem says *)
Example wt_nonvacuous_run : exists j, enc w_T3 5 (KModel 1) w_v3 = Some j.
Proof. apply annotation_accepted_by_encoder; vm_compute; reflexivity. Qed.

Print Assumptions wt_inhabits.
Print Assumptions annotation_accepted_by_encoder.
Print Assumptions field_accepted_by_encoder.
Print Assumptions decoded_is_well_typed.
Print Assumptions union_encoder_rejects_refuted.
Print Assumptions wt_nonvacuous.
Print Assumptions wt_nonvacuous_run.
