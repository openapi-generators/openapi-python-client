(* EnumsThm.v — C14: the member table of values_from_list as a set, the collisions that raise, the generated string and
   integer classes (enum_class_exact), literal enums, null among the values and the nullable decoders, const. *)
From Coq Require Import NArith ZArith List Bool Lia.
Import ListNotations.
Require Import OPC.gen.GenTables OPC.Uni OPC.Names OPC.NamesThm OPC.PyLit OPC.PyLitThm OPC.Values OPC.PyEval OPC.ValuesThm OPC.Enums.
Open Scope N_scope.

#[local] Opaque printable upper lower snake_case c_isalpha.

(* what values_from_list would store for the i-th, (i+1)-th ... value *)
Fixpoint entries_from (i : N) (vs : list evalue) : list (str * evalue) :=
  match vs with [] => [] | e :: r => (member_key i e, esc_ev e) :: entries_from (N.succ i) r end.

Definition key_functional (l : list (str * evalue)) : Prop :=
  forall k v v', In (k, v) l -> In (k, v') l -> v = v'.
Definition key_functional_b (l : list (str * evalue)) : bool :=
  forallb (fun p => forallb (fun q => implb (str_eqb (fst p) (fst q)) (evalue_eqb (snd p) (snd q))) l) l.

(* guard: two values whose sanitised member names coincide are the same value (complement = finding enum_silent_merge) *)
Definition g_enum_sanitised_distinct (vs : list evalue) : bool := key_functional_b (entries_from 0 vs).

Lemma entries_from_eq : forall vs i, entries_from i vs = entries i vs.
Proof.
  induction vs as [|e vs IH]; intros i; [reflexivity|]. cbn [entries_from]. rewrite IH. reflexivity.
Qed.

Lemma key_functional_b_sound l : key_functional_b l = true -> key_functional l.
Proof.
  intros H k v v' H1 H2. unfold key_functional_b in H.
  rewrite forallb_forall in H. specialize (H _ H1). rewrite forallb_forall in H. specialize (H _ H2).
  cbn [fst snd] in H. rewrite str_eqb_refl in H. apply evalue_eqb_eq. exact H.
Qed.

(* no invented member, whatever the input *)
Theorem vfl_members_sub : forall vs m p, values_from_list vs = Some m -> In p m -> In p (entries_from 0 vs).
Proof.
  intros vs m p H Hp. apply go_fold in H as ->. rewrite entries_from_eq.
  apply set_all_sub in Hp as [[]|Hp]. exact Hp.
Qed.

(* under the guard the table is exactly the set of (sanitised name, stored value) pairs of the declared values *)
Theorem vfl_exact : forall vs m, key_functional (entries_from 0 vs) -> values_from_list vs = Some m ->
  forall p, In p m <-> In p (entries_from 0 vs).
Proof.
  intros vs m Hf H p. split; [apply vfl_members_sub, H|].
  apply go_fold in H as ->. rewrite entries_from_eq in *. apply (set_all_sup _ [] Hf).
Qed.

Lemma entries_from_nth vs i j e : nth_error vs j = Some e ->
  In (member_key (i + N.of_nat j) e, esc_ev e) (entries_from i vs).
Proof. rewrite entries_from_eq. apply entries_nth. Qed.

Lemma entries_from_In : forall vs i k v, In (k, v) (entries_from i vs) -> exists e, In e vs /\ v = esc_ev e.
Proof.
  intros vs i k v H. rewrite entries_from_eq in H. apply entries_In in H as (j & e & He & _ & Hv). exists e. auto.
Qed.

Definition raw_key (i : N) (s : str) : str :=
  match s with
  | c :: _ => if c_isalpha c then upper s else s_VALUE_ ++ dec_N i
  | [] => s_VALUE_ ++ dec_N i
  end.

Lemma go_str_step i s vs out m : values_from_list_go i (EStr s :: vs) out = Some m -> assoc_mem (raw_key i s) out = false.
Proof.
  cbn [values_from_list_go]. unfold raw_key.
  destruct (assoc_mem _ out); [discriminate | reflexivity].
Qed.

(* if the table is built at all, no value's raw key equals the stored name of an earlier value: such a collision raises *)
Theorem enum_dup_reported : forall vs m i j e s, values_from_list vs = Some m ->
  (i < j)%nat -> nth_error vs i = Some e -> nth_error vs j = Some (EStr s) ->
  raw_key (N.of_nat j) s <> member_key (N.of_nat i) e.
Proof.
  intros vs m i j e s H Hlt Hi Hj.
  apply nth_error_split in Hj as (pre & post & -> & <-). rewrite nth_error_app1 in Hi by exact Hlt.
  (* when the loop reaches the value its raw key is not in the table, and the names of all earlier values are *)
  apply go_app, go_str_step, assoc_mem_false in H. rewrite N.add_0_l in H. intros E. apply H. rewrite E.
  apply set_all_keys. right. exact (in_map fst _ _ (entries_nth pre 0 i e Hi)).
Qed.

Theorem enum_dup_crash_refuted : values_from_list [EStr [97]; EStr [65]] = None.
Proof. vm_compute. reflexivity. Qed.

Lemma insert_kv_In {A : Type} (kv : str * A) : forall l p, In p (insert_kv kv l) <-> In p (kv :: l).
Proof.
  induction l as [|h t IH]; intros p; cbn [insert_kv]; [reflexivity|].
  destruct (str_ltb (fst kv) (fst h)); [reflexivity|]. split.
  - intros [H|H]; [right; left; exact H|]. apply IH in H as [H|H]; [left; exact H | right; right; exact H].
  - intros [H|[H|H]]; [right; apply IH; left; exact H | left; exact H | right; apply IH; right; exact H].
Qed.

Lemma dictsort_In {A : Type} : forall (l : list (str * A)) p, In p (dictsort l) <-> In p l.
Proof.
  induction l as [|h t IH]; intros p; [reflexivity|].
  unfold dictsort. cbn [fold_right]. fold (dictsort t). rewrite insert_kv_In. cbn [In]. rewrite IH. reflexivity.
Qed.

Lemma map_opt_In {A B : Type} (f : A -> option B) : forall l l', map_opt f l = Some l' ->
  forall b, In b l' <-> exists a, In a l /\ f a = Some b.
Proof.
  induction l as [|a l IH]; intros l' H b.
  - cbn [map_opt] in H. injection H as <-. split; [intros [] | intros (a & [] & _)].
  - cbn [map_opt] in H. destruct (f a) as [b0|] eqn:E; [|discriminate].
    destruct (map_opt f l) as [t|] eqn:E2; [|discriminate]. injection H as <-.
    specialize (IH t eq_refl b). split.
    + intros [Hb|Hb].
      * subst b0. exists a. split; [left; reflexivity | exact E].
      * apply IH in Hb as (a' & Ha' & Hf). exists a'. split; [right; exact Ha' | exact Hf].
    + intros (a' & [Ha'|Ha'] & Hf).
      * subst a'. left. congruence.
      * right. apply IH. exists a'. split; assumption.
Qed.

Lemma map_opt_total {A B : Type} (f : A -> option B) : forall l,
  (forall a, In a l -> exists b, f a = Some b) -> exists l', map_opt f l = Some l'.
Proof.
  induction l as [|a l IH]; intros H; [exists []; reflexivity|].
  destruct (H a (or_introl eq_refl)) as (b & Hb).
  destruct IH as (t & Ht); [intros a' Ha'; apply H; right; exact Ha'|].
  exists (b :: t). cbn [map_opt]. rewrite Hb, Ht. reflexivity.
Qed.

Lemma enum_lookup_In : forall cls j k, enum_lookup cls j = Some k -> exists v, In (k, v) cls /\ py_eq j v = true.
Proof.
  induction cls as [|[k0 v0] cls IH]; intros j k H; [discriminate H|].
  cbn [enum_lookup] in H. destruct (py_eq j v0) eqn:E.
  - injection H as <-. exists v0. split; [left; reflexivity | exact E].
  - destruct (IH _ _ H) as (v & Hin & He). exists v. split; [right; exact Hin | exact He].
Qed.

Lemma enum_lookup_some : forall cls j k v, In (k, v) cls -> py_eq j v = true -> exists k', enum_lookup cls j = Some k'.
Proof.
  induction cls as [|[k0 v0] cls IH]; intros j k v Hin He; [destruct Hin|].
  cbn [enum_lookup]. destruct (py_eq j v0) eqn:E; [exists k0; reflexivity|].
  destruct Hin as [Hin|Hin]; [injection Hin as -> ->; congruence|].
  apply (IH _ _ _ Hin He).
Qed.

Lemma enum_lookup_none : forall cls j, (forall k v, In (k, v) cls -> py_eq j v = false) -> enum_lookup cls j = None.
Proof.
  intros cls j H. destruct (enum_lookup cls j) as [k|] eqn:E; [|reflexivity].
  apply enum_lookup_In in E as (v & Hin & He). rewrite (H _ _ Hin) in He. discriminate.
Qed.

Lemma enum_value_In : forall (cls : enum_class) k v, functional cls -> In (k, v) cls -> enum_value cls k = Some v.
Proof.
  induction cls as [|[k0 v0] cls IH]; intros k v Hf Hin; [destruct Hin|].
  cbn [enum_value]. destruct (str_eqb_spec k k0) as [<-|NE].
  - f_equal. apply (Hf k); [left; reflexivity | exact Hin].
  - destruct Hin as [[= -> ->]|Hin]; [congruence|].
    apply IH; [|exact Hin]. intros k1 v1 v1' H1 H2. apply (Hf k1); right; assumption.
Qed.

Lemma py_eq_str_r j s : py_eq j (JStr s) = true -> j = JStr s.
Proof.
  destruct j as [|b|z|f|s'|s']; cbn [py_eq as_int]; try discriminate.
  - destruct (if f_finite f then f_int f else None); discriminate.
  - intros H. apply str_eqb_eq in H. subst. reflexivity.
Qed.

Lemma py_eq_int_int a b : py_eq (JInt a) (JInt b) = true -> a = b.
Proof. cbn [py_eq as_int]. apply Z.eqb_eq. Qed.

Lemma py_eq_wire e e' : py_eq (wire e) (wire e') = true <-> e = e'.
Proof.
  destruct e as [x|x], e' as [y|y]; cbn [wire py_eq as_int]; [rewrite Z.eqb_eq | | | rewrite str_eqb_eq]; split; congruence.
Qed.

Lemma py_eq_wire_refl e : py_eq (wire e) (wire e) = true.
Proof. apply py_eq_wire. reflexivity. Qed.

(* str_enum.py.jinja and int_enum.py.jinja differ in how one member line is rendered (member) and in the order the
   table is listed in (listed) *)

Section EnumClass.
  Variable vs : list evalue.
  Variable m : list (str * evalue).
  Hypothesis Hm : values_from_list vs = Some m.
  Variable member : str * evalue -> option (str * jval).
  Variable listed : list (str * evalue).
  Hypothesis Hlisted : forall p, In p listed <-> In p m.
  Hypothesis Hmember : forall k e, In e vs -> In (k, esc_ev e) m -> member (k, esc_ev e) = Some (k, wire e).
  Hypothesis Hinj : forall e e', In e vs -> In e' vs -> esc_ev e = esc_ev e' -> e = e'.
  Hypothesis Hf : key_functional (entries_from 0 vs).

  Lemma class_exists : exists cls, map_opt member listed = Some cls.
  Proof.
    apply map_opt_total. intros [k v] Hin. apply Hlisted in Hin.
    destruct (values_from_list_members_declared _ _ _ _ Hm Hin) as (e & He & ->).
    exists (k, wire e). apply Hmember; assumption.
  Qed.

  Section Class.
  Variable cls : enum_class.
  Hypothesis Hcls : map_opt member listed = Some cls.

  Lemma class_In k w : In (k, w) cls <-> exists e, w = wire e /\ In e vs /\ In (k, esc_ev e) m.
  Proof.
    rewrite (map_opt_In _ _ _ Hcls). split.
    - intros ([k' v] & Hin & Hr). apply Hlisted in Hin.
      destruct (values_from_list_members_declared _ _ _ _ Hm Hin) as (e & He & ->).
      rewrite (Hmember _ _ He Hin) in Hr. injection Hr as -> <-. exists e. auto.
    - intros (e & -> & He & Hin). exists (k, esc_ev e). split; [apply Hlisted, Hin | apply Hmember; assumption].
  Qed.

  Lemma class_members_declared k w : In (k, w) cls -> exists e, w = wire e /\ In e vs.
  Proof. intros H. apply class_In in H as (e & -> & He & _). exists e. auto. Qed.

  (* the table has one entry per name, so the class has one value per name *)
  Lemma class_functional : functional cls.
  Proof.
    intros k w w' H1 H2. apply class_In in H1 as (e1 & -> & He1 & H1). apply class_In in H2 as (e2 & -> & He2 & H2).
    f_equal. apply Hinj; [exact He1 | exact He2|].
    apply (nodup_fst_functional m (values_from_list_keys_nodup _ _ Hm) k _ _ H1 H2).
  Qed.

  Lemma class_decode_sound j k : enum_lookup cls j = Some k ->
    exists e, py_eq j (wire e) = true /\ In e vs /\ enum_value cls k = Some (wire e).
  Proof.
    intros H. apply enum_lookup_In in H as (w & Hin & He).
    destruct (class_members_declared _ _ Hin) as (e & -> & Hv). exists e. split; [exact He|]. split; [exact Hv|].
    apply enum_value_In; [apply class_functional | exact Hin].
  Qed.

  Lemma class_decode_listed e : In e vs ->
    exists k, enum_decode cls (wire e) = DMember k /\ enum_value cls k = Some (wire e).
  Proof.
    intros He. destruct (In_nth_error _ _ He) as (i & Hi).
    pose proof (entries_from_nth vs 0 i _ Hi) as Hent. apply (vfl_exact vs m Hf Hm) in Hent.
    assert (Hc : In (member_key (0 + N.of_nat i) e, wire e) cls) by (apply class_In; exists e; auto).
    destruct (enum_lookup_some cls (wire e) _ _ Hc (py_eq_wire_refl e)) as (k' & Hk').
    exists k'. unfold enum_decode. rewrite Hk'. split; [reflexivity|].
    destruct (class_decode_sound _ _ Hk') as (e' & E & _ & Hv). apply py_eq_wire in E as <-. exact Hv.
  Qed.
  End Class.

  (* the statement of which enum_exact_str and enum_exact_int are the two instances *)
  Theorem enum_class_exact :
    exists cls, map_opt member listed = Some cls /\
      (forall e, In e vs -> exists k, enum_decode cls (wire e) = DMember k /\ enum_value cls k = Some (wire e)) /\
      (forall j k, enum_lookup cls j = Some k ->
         exists e, py_eq j (wire e) = true /\ In e vs /\ enum_value cls k = Some (wire e)) /\
      (forall k w, In (k, w) cls -> exists e, w = wire e /\ In e vs).
  Proof.
    destruct class_exists as (cls & Hcls). exists cls. split; [exact Hcls|]. split; [|split].
    - apply (class_decode_listed cls Hcls).
    - apply (class_decode_sound cls Hcls).
    - apply (class_members_declared cls Hcls).
  Qed.
End EnumClass.

(* string enums: the class generated from str_enum.py.jinja *)

Lemma all_str_esc vs : forallb ev_is_str vs = true -> g_no_bs_nl vs = true ->
  forall e, In e vs -> exists s, e = EStr s /\ no_bs_nl s = true.
Proof.
  intros Hs Hn e He. rewrite forallb_forall in Hs. unfold g_no_bs_nl in Hn. rewrite forallb_forall in Hn.
  specialize (Hs e He). specialize (Hn e He). destruct e as [z|s]; [discriminate|].
  exists s. split; [reflexivity | exact Hn].
Qed.

(* guard: every member name is an identifier (complement = finding xid_gap of C09 reaching enum member names) *)
Definition g_member_names (vs : list evalue) : bool := forallb (fun p => is_identifier (fst p)) (entries_from 0 vs).

Lemma str_member_ok k s : is_identifier k = true -> no_bs_nl s = true -> str_member (k, EStr (escape_dq s)) = Some (k, JStr s).
Proof.
  intros Hk H. unfold str_member. cbn [fst snd]. rewrite Hk. cbn [negb].
  rewrite (dq_literal_roundtrip s [] H). reflexivity.
Qed.

Lemma escape_dq_inj a b : no_bs_nl a = true -> no_bs_nl b = true -> escape_dq a = escape_dq b -> a = b.
Proof.
  intros Ha Hb E. pose proof (dq_literal_roundtrip a [] Ha) as La. pose proof (dq_literal_roundtrip b [] Hb) as Lb.
  rewrite E in La. congruence.
Qed.

Theorem enum_exact_str : forall vs m,
  forallb ev_is_str vs = true -> g_no_bs_nl vs = true -> g_enum_sanitised_distinct vs = true -> g_member_names vs = true ->
  values_from_list vs = Some m ->
  exists cls, str_enum_class m = Some cls /\
    (forall s, In (EStr s) vs -> exists k, enum_decode cls (JStr s) = DMember k /\ enum_value cls k = Some (JStr s)) /\
    (forall j k, enum_lookup cls j = Some k -> exists s, j = JStr s /\ In (EStr s) vs /\ enum_value cls k = Some (JStr s)) /\
    (forall j, (forall s, j = JStr s -> ~ In (EStr s) vs) -> enum_decode cls j = DFail) /\
    (forall k w, In (k, w) cls -> exists s, w = JStr s /\ In (EStr s) vs).
Proof.
  intros vs m Hstr Hbs Hg Hid Hm.
  pose proof (all_str_esc vs Hstr Hbs) as Hval.
  destruct (enum_class_exact vs m Hm str_member (dictsort m) (dictsort_In m)) as (cls & Hcls & Listed & Sound & Decl).
  { intros k e He Hin. destruct (Hval e He) as (s & -> & Hs). apply str_member_ok; [|exact Hs].
    apply (vfl_members_sub _ _ _ Hm) in Hin. unfold g_member_names in Hid. rewrite forallb_forall in Hid. apply (Hid _ Hin). }
  { intros e e' He He' E. destruct (Hval e He) as (s & -> & Hs), (Hval e' He') as (s' & -> & Hs').
    injection E as E. f_equal. apply escape_dq_inj; assumption. }
  { apply key_functional_b_sound, Hg. }
  assert (Sound' : forall j k, enum_lookup cls j = Some k ->
            exists s, j = JStr s /\ In (EStr s) vs /\ enum_value cls k = Some (JStr s)).
  { intros j k H. destruct (Sound j k H) as (e & He & Hv & Hk). destruct (Hval e Hv) as (s & -> & _).
    apply py_eq_str_r in He. exists s. auto. }
  exists cls. split; [exact Hcls|]. split; [|split; [exact Sound'|split]].
  - intros s Hs. apply (Listed (EStr s) Hs).
  - intros j Hno. unfold enum_decode. destruct (enum_lookup cls j) as [k|] eqn:E; [|reflexivity].
    destruct (Sound' j k E) as (s & -> & Hs & _). destruct (Hno s eq_refl Hs).
  - intros k w H. destruct (Decl k w H) as (e & -> & He). destruct (Hval e He) as (s & -> & _). exists s. auto.
Qed.

(* integer enums: int_enum.py.jinja *)

Lemma int_key_inj i j a b : member_key i (EInt a) = member_key j (EInt b) -> a = b.
Proof.
  (* after VALUE_ a non-negative name goes on with a digit or a minus sign, a negative one with the letter N *)
  assert (Mixed : forall z p, s_VALUE_ ++ dec_Z z <> s_VALUE_NEGATIVE_ ++ dec_N (Npos p)).
  { intros z p E. apply (app_inv_head s_VALUE_ _ (78 :: _)) in E.
    destruct (dec_Z_head z) as (c & r & Ec & Hc). rewrite Ec in E. injection E as -> _.
    destruct Hc as [Hc|Hc]; [discriminate Hc | lia]. }
  destruct a as [|pa|pa], b as [|pb|pb]; cbn [member_key]; intros H;
    try (apply app_inv_head, dec_Z_inj in H; exact H);
    try (destruct (Mixed _ _ H)); try (destruct (Mixed _ _ (eq_sym H))).
  apply app_inv_head, dec_N_inj in H. congruence.
Qed.

(* integer member names are injective in the value: the guard holds for every integer list *)
Lemma int_entries_functional vs : forallb ev_is_int vs = true -> key_functional (entries_from 0 vs).
Proof.
  intros Hi k v v' H1 H2. rewrite entries_from_eq in H1, H2. rewrite forallb_forall in Hi.
  apply entries_In in H1 as (j1 & e1 & He1 & -> & ->), H2 as (j2 & e2 & He2 & Hk & ->).
  apply Hi in He1, He2. destruct e1 as [z1|], e2 as [z2|]; try discriminate.
  cbn [esc_ev]. f_equal. apply (int_key_inj _ _ _ _ Hk).
Qed.

Lemma int_member_ok k z : int_member (k, EInt z) = Some (k, JInt z).
Proof. unfold int_member. cbn [fst snd]. rewrite parse_int_dec_Z. reflexivity. Qed.

Theorem enum_exact_int : forall vs m,
  forallb ev_is_int vs = true -> values_from_list vs = Some m ->
  exists cls, int_enum_class m = Some cls /\
    (forall z, In (EInt z) vs -> exists k, enum_decode cls (JInt z) = DMember k /\ enum_value cls k = Some (JInt z)) /\
    (forall j k, enum_lookup cls j = Some k ->
       exists z, py_eq j (JInt z) = true /\ In (EInt z) vs /\ enum_value cls k = Some (JInt z)) /\
    (forall z, ~ In (EInt z) vs -> enum_decode cls (JInt z) = DFail) /\
    (forall k w, In (k, w) cls -> exists z, w = JInt z /\ In (EInt z) vs).
Proof.
  intros vs m Hint Hm.
  assert (Hval : forall e, In e vs -> exists z, e = EInt z).
  { intros e He. rewrite forallb_forall in Hint. specialize (Hint e He). destruct e as [z|s]; [eauto | discriminate]. }
  destruct (enum_class_exact vs m Hm int_member m) as (cls & Hcls & Listed & Sound & Decl).
  { reflexivity. }
  { intros k e He _. destruct (Hval e He) as (z & ->). apply int_member_ok. }
  { intros e e' He He' E. destruct (Hval e He) as (z & ->), (Hval e' He') as (z' & ->). exact E. }
  { apply int_entries_functional, Hint. }
  assert (Sound' : forall j k, enum_lookup cls j = Some k ->
            exists z, py_eq j (JInt z) = true /\ In (EInt z) vs /\ enum_value cls k = Some (JInt z)).
  { intros j k H. destruct (Sound j k H) as (e & He & Hv & Hk). destruct (Hval e Hv) as (z & ->). exists z. auto. }
  exists cls. split; [exact Hcls|]. split; [|split; [exact Sound'|split]].
  - intros z Hz. apply (Listed (EInt z) Hz).
  - intros z Hz. unfold enum_decode. destruct (enum_lookup cls (JInt z)) as [k|] eqn:E; [|reflexivity].
    destruct (Sound' _ k E) as (z' & He & Hz' & _). apply py_eq_int_int in He as ->. contradiction.
  - intros k w H. destruct (Decl k w H) as (e & -> & He). destruct (Hval e He) as (z & ->). exists z. auto.
Qed.

Lemma go_int_total : forall vs i out, forallb ev_is_int vs = true -> exists m, values_from_list_go i vs out = Some m.
Proof.
  induction vs as [|e vs IH]; intros i out H; [exists out; reflexivity|].
  cbn [forallb] in H. apply andb_prop in H as [He H]. destruct e as [z|s]; [|discriminate].
  cbn [values_from_list_go]. apply IH. exact H.
Qed.

Theorem int_enum_never_raises : forall vs, forallb ev_is_int vs = true -> exists m, values_from_list vs = Some m.
Proof. intros vs H. apply go_int_total. exact H. Qed.

(* finding numeric_alias: decoding is exact on inputs JInt _ only; a JSON true decodes to the member 1 *)
Theorem enum_numeric_alias_refuted : exists vs m cls k,
  values_from_list vs = Some m /\ int_enum_class m = Some cls /\ enum_decode cls (JBool true) = DMember k.
Proof.
  exists [EInt 1%Z], [([86;65;76;85;69;95;49], EInt 1%Z)], [([86;65;76;85;69;95;49], JInt 1%Z)], [86;65;76;85;69;95;49].
  split; [vm_compute; reflexivity|]. split; vm_compute; reflexivity.
Qed.

(* literal enums: literal_enum.py.jinja *)

Definition ev_repr_printable (e : evalue) : bool := match e with EStr s => repr_printable s | EInt _ => true end.
(* domain restriction of the MODEL (the lexer does not decode \x, \u escapes); not a defect class of the code *)
Definition g_repr_printable (vals : list evalue) : bool := forallb ev_repr_printable vals.

Lemma lit_member_ok e : ev_repr_printable e = true -> lit_member e = Some (wire e).
Proof.
  destruct e as [z|s]; cbn [ev_repr_printable lit_member wire]; intros H.
  - rewrite parse_int_dec_Z. reflexivity.
  - rewrite (repr_roundtrip_printable s H). reflexivity.
Qed.

Theorem literal_enum_exact : forall vals, g_repr_printable vals = true ->
  exists lv, literal_values vals = Some lv /\
    (forall j, In j lv <-> exists e, In e vals /\ j = wire e) /\
    (forall e, In e vals -> literal_decode lv (wire e) = DValue (wire e)) /\
    (forall j, literal_check lv j = true -> exists e, In e vals /\ py_eq j (wire e) = true) /\
    (forall s, ~ In (EStr s) vals -> literal_decode lv (JStr s) = DFail) /\
    (forall z, ~ In (EInt z) vals -> literal_decode lv (JInt z) = DFail).
Proof.
  intros vals Hg. unfold g_repr_printable in Hg. rewrite forallb_forall in Hg.
  destruct (map_opt_total lit_member vals) as (lv & Hlv).
  { intros e He. exists (wire e). apply lit_member_ok. apply Hg. exact He. }
  exists lv. split; [exact Hlv|].
  assert (HIn : forall j, In j lv <-> exists e, In e vals /\ j = wire e).
  { intros j. unfold literal_values in Hlv. rewrite (map_opt_In _ _ _ Hlv). split.
    - intros (e & He & Hf). rewrite (lit_member_ok e (Hg e He)) in Hf. injection Hf as <-. exists e. auto.
    - intros (e & He & ->). exists e. split; [exact He | apply lit_member_ok; apply Hg; exact He]. }
  assert (HChk : forall j, literal_check lv j = true -> exists e, In e vals /\ py_eq j (wire e) = true).
  { intros j H. unfold literal_check in H. apply existsb_exists in H as (w & Hw & He).
    apply HIn in Hw as (e & Hev & ->). exists e. auto. }
  assert (HFail : forall e, ~ In e vals -> literal_decode lv (wire e) = DFail).
  { intros e Hno. unfold literal_decode. destruct (literal_check lv (wire e)) eqn:C; [|reflexivity].
    destruct (HChk _ C) as (e' & He' & Hp). apply py_eq_wire in Hp as <-. contradiction. }
  split; [exact HIn|]. split; [|split; [exact HChk|split]].
  - intros e He. unfold literal_decode.
    assert (C : literal_check lv (wire e) = true).
    { unfold literal_check. apply existsb_exists. exists (wire e). split; [apply HIn; exists e; auto | apply py_eq_wire_refl]. }
    rewrite C. reflexivity.
  - intros s Hs. apply (HFail (EStr s) Hs).
  - intros z Hz. apply (HFail (EInt z) Hz).
Qed.

Lemma all_ints_wire : forall l vs, all_ints l = Some vs -> map wire vs = l.
Proof.
  induction l as [|j l IH]; intros vs H.
  - cbn [all_ints] in H. injection H as <-. reflexivity.
  - cbn [all_ints] in H. destruct j as [|b|z|f|s|s]; try discriminate.
    destruct (all_ints l) as [t|]; [|discriminate]. injection H as <-. cbn [map wire]. f_equal. apply IH. reflexivity.
Qed.
Lemma all_strs_wire : forall l vs, all_strs l = Some vs -> map wire vs = l.
Proof.
  induction l as [|j l IH]; intros vs H.
  - cbn [all_strs] in H. injection H as <-. reflexivity.
  - cbn [all_strs] in H. destruct j as [|b|z|f|s|s]; try discriminate.
    destruct (all_strs l) as [t|]; [|discriminate]. injection H as <-. cbn [map wire]. f_equal. apply IH. reflexivity.
Qed.

Lemma filter_len_le {A : Type} (f : A -> bool) : forall l, (length (filter f l) <= length l)%nat.
Proof. induction l as [|a l IH]; [apply le_n|]. cbn [filter]. destruct (f a); cbn [length]; lia. Qed.

Lemma filter_length_lt {A : Type} (f : A -> bool) : forall l x, In x l -> f x = false ->
  (length (filter f l) < length l)%nat.
Proof.
  induction l as [|a l IH]; intros x Hin Hx; [destruct Hin|].
  cbn [filter length]. destruct Hin as [->|Hin].
  - rewrite Hx. pose proof (filter_len_le f l). lia.
  - specialize (IH x Hin Hx). destruct (f a); cbn [length]; lia.
Qed.

Definition not_null (j : jval) : bool := negb (is_null j).

Lemma wire_not_null e : wire e <> JNull.
Proof. destruct e; discriminate. Qed.

(* the members of a nullable/plain result are exactly the non-null declared values *)
Definition build_values_exact (enum : list jval) (vs : list evalue) : Prop :=
  map wire vs = filter not_null enum.

Lemma enum_build_spec enum :
  match enum_build enum with
  | BNoneProp => filter not_null enum = []
  | BNullable _ vs => build_values_exact enum vs /\ (length (filter not_null enum) < length enum)%nat
  | BPlain _ vs => build_values_exact enum vs /\ ~ (length (filter not_null enum) < length enum)%nat
  | BMixed | BUnsupported => True
  end.
Proof.
  unfold enum_build, build_values_exact. fold not_null.
  destruct (filter not_null enum) as [|j0 nn'] eqn:Enn; [reflexivity|]. rewrite <- Enn.
  destruct (negb (forallb _ (filter not_null enum))); [exact I|].
  destruct (all_ints (filter not_null enum)) as [vs|] eqn:Ei.
  - apply all_ints_wire in Ei. destruct (Nat.ltb_spec (length (filter not_null enum)) (length enum)); split; auto; lia.
  - destruct (all_strs (filter not_null enum)) as [vs|] eqn:Es; [|exact I].
    apply all_strs_wire in Es. destruct (Nat.ltb_spec (length (filter not_null enum)) (length enum)); split; auto; lia.
Qed.

Theorem null_makes_nullable : forall enum, In JNull enum ->
  match enum_build enum with
  | BPlain _ _ => False
  | BNullable _ vs => build_values_exact enum vs
  | BNoneProp => forall j, In j enum -> j = JNull
  | BMixed | BUnsupported => True
  end.
Proof.
  intros enum Hnull. pose proof (enum_build_spec enum) as S.
  pose proof (filter_length_lt not_null enum JNull Hnull eq_refl) as Hlt.
  destruct (enum_build enum) as [| | |vt vs|vt vs]; try exact I.
  - intros j Hj. destruct j; try reflexivity.
    all: assert (X : In _ (filter not_null enum)) by (apply filter_In; split; [exact Hj | reflexivity]);
      rewrite S in X; destruct X.
  - exact (proj1 S).
  - exact (proj2 S Hlt).
Qed.

Theorem no_null_plain : forall enum, ~ In JNull enum ->
  match enum_build enum with
  | BNullable _ _ => False
  | BPlain _ vs => map wire vs = enum
  | _ => True
  end.
Proof.
  intros enum Hn. pose proof (enum_build_spec enum) as S. unfold build_values_exact in S.
  assert (E : filter not_null enum = enum).
  { clear -Hn. induction enum as [|j l IH]; [reflexivity|]. cbn [filter].
    destruct j; cbn [not_null is_null negb]; try (f_equal; apply IH; intros H; apply Hn; right; exact H).
    exfalso. apply Hn. left; reflexivity. }
  rewrite E in S. destruct (enum_build enum) as [| | |vt vs|vt vs]; try exact I.
  - exact (Nat.lt_irrefl _ (proj2 S)).
  - exact (proj1 S).
Qed.

Theorem nullable_accepts_null : forall vt cls lv,
  nullable_enum_decode vt cls JNull = DNone /\ nullable_literal_decode vt lv JNull = DNone.
Proof. intros. split; reflexivity. Qed.

(* finding nullable_enum_passthrough: behind a null, an unlisted value is not rejected but passed through undecoded *)
Theorem nullable_passthrough_refuted : exists vt cls j,
  enum_lookup cls j = None /\ j <> JNull /\ nullable_enum_decode vt cls j = DRaw j.
Proof.
  exists VStr, [([65], JStr [97])], (JStr [122]). split; [reflexivity|]. split; [discriminate | reflexivity].
Qed.

Theorem nullable_decode_listed : forall vt cls j k, j <> JNull -> isinstance_vt vt j = true ->
  enum_lookup cls j = Some k -> nullable_enum_decode vt cls j = DMember k.
Proof.
  intros vt cls j k Hj Hi Hl. unfold nullable_enum_decode. rewrite Hi, Hl. destruct j; try reflexivity. congruence.
Qed.

(* finding enum_backslash: the value a\b reaches the class body as DQ a\b DQ, which Python reads as a, backspace, b *)
Theorem enum_backslash_refuted : exists vs m cls,
  values_from_list vs = Some m /\ str_enum_class m = Some cls /\ enum_decode cls (JStr [97;92;98]) = DFail /\
  In (EStr [97;92;98]) vs.
Proof.
  exists [EStr [97;92;98]], [([65;66], EStr [97;92;98])], [([65;66], JStr [97;8])].
  split; [vm_compute; reflexivity|]. split; [vm_compute; reflexivity|]. split; [vm_compute; reflexivity | left; reflexivity].
Qed.

Example g_enum_nontrivial :
  g_enum_sanitised_distinct [EStr [97;32;98]; EStr [99]; EStr [49;120]; EStr []] = true /\
  g_no_bs_nl [EStr [97;32;98]; EStr [99;34]; EStr [49;120]; EStr []] = true /\
  g_member_names [EStr [97;32;98]; EStr [99;34]; EStr [49;120]; EStr []; EStr [233;45;20013]] = true.
Proof. split; [|split]; vm_compute; reflexivity. Qed.

(* finding xid_gap (C09) reaching member names: the value a followed by superscript two gives a member name that is not an identifier *)
Theorem enum_member_name_refuted : exists vs m, values_from_list vs = Some m /\ str_enum_class m = None /\ g_member_names vs = false.
Proof. exists [EStr [97;178]], [([65;178], EStr [97;178])]. split; [|split]; vm_compute; reflexivity. Qed.

Example g_enum_merge_outside : g_enum_sanitised_distinct [EStr [97;32;98]; EStr [97;45;98]] = false.
Proof. vm_compute. reflexivity. Qed.

Definition fsafe_c (ch : N) : bool := negb ((ch =? 34) || (ch =? 123) || (ch =? 125)).

Lemma digit_fsafe c : is_digit c = true -> fsafe_c c = true.
Proof.
  intros H. unfold fsafe_c.
  destruct (N.eqb_spec c 34) as [->|_]; [discriminate H|]. destruct (N.eqb_spec c 123) as [->|_]; [discriminate H|].
  destruct (N.eqb_spec c 125) as [->|_]; [discriminate H | reflexivity].
Qed.

Lemma fstring_safe_dec_Z z : fstring_safe (dec_Z z) = true.
Proof.
  unfold fstring_safe. fold fsafe_c.
  destruct z as [|p|p]; unfold dec_Z.
  - reflexivity.
  - apply (forallb_impl is_digit); [apply digit_fsafe | apply dec_N_digits].
  - cbn [forallb]. change (fsafe_c 45) with true. cbn [andb].
    apply (forallb_impl is_digit); [apply digit_fsafe | apply dec_N_digits].
Qed.

(* string constants: printable, and free of both quotes and braces (complement = finding const_fstring_break) *)
Definition cstr_c (c : N) : bool := negb ((c =? 34) || (c =? 39) || (c =? 123) || (c =? 125)).
Definition g_const_str (s : str) : bool := repr_printable s && forallb cstr_c s.

Lemma cstr_no_quote s q : (q = 34 \/ q = 39) -> forallb cstr_c s = true -> existsb (N.eqb q) s = false.
Proof.
  intros Hq H. induction s as [|c s IH]; [reflexivity|]. cbn [forallb] in H. apply andb_prop in H as [Hc Hs].
  cbn [existsb]. rewrite (IH Hs), orb_false_r, N.eqb_sym. unfold cstr_c in Hc.
  destruct Hq as [-> | ->]; destruct (c =? 34), (c =? 39); try discriminate Hc; reflexivity.
Qed.

Lemma cstr_fsafe c : cstr_c c = true -> fsafe_c c = true.
Proof. unfold cstr_c, fsafe_c. destruct (c =? 34), (c =? 39), (c =? 123), (c =? 125); try discriminate; reflexivity. Qed.

Lemma const_str_value s : g_const_str s = true -> const_value (JStr s) = Some (JStr s).
Proof.
  intros H. unfold g_const_str in H. apply andb_prop in H as [Hp Hc].
  pose proof (cstr_no_quote s 34 (or_introl eq_refl) Hc) as Hdq.
  pose proof (cstr_no_quote s 39 (or_intror eq_refl) Hc) as Hsq.
  unfold const_value. cbn [conv_any conv_string py_str code].
  rewrite (escape_dq_id s Hdq).
  assert (Eq : repr_quote s = SQ).
  { unfold repr_quote. change SQ with 39. rewrite Hsq. reflexivity. }
  assert (Er : py_repr s = 39 :: flat_map (repr_char 39) s ++ [39]).
  { unfold py_repr. rewrite Eq. reflexivity. }
  assert (Safe : fstring_safe (py_repr s) = true).
  { rewrite Er. unfold fstring_safe. fold fsafe_c. cbn [forallb]. change (fsafe_c 39) with true. cbn [andb].
    rewrite forallb_app. cbn [forallb]. change (fsafe_c 39) with true. rewrite !andb_true_r.
    apply forallb_flat_map. intros c Hin.
    unfold repr_printable in Hp. rewrite forallb_forall in Hp. rewrite forallb_forall in Hc.
    rewrite (repr_char_printable 39 c (Hp c Hin)). specialize (Hc c Hin).
    pose proof (cstr_fsafe c Hc) as Fc.
    destruct ((c =? 39) || (c =? BS)); cbn [forallb]; rewrite Fc; reflexivity. }
  rewrite Safe. cbn [negb].
  pose proof (repr_roundtrip_printable s Hp) as L. rewrite Er in L |- *.
  rewrite (eval_code_quoted 39 _ _ (or_intror eq_refl) L). reflexivity.
Qed.

Definition g_const (cv : jval) : bool :=
  match cv with JStr s => g_const_str s | JInt _ | JBool _ => true | _ => false end.

Lemma const_value_self cv : g_const cv = true -> const_value cv = Some cv.
Proof.
  intros H. destruct cv as [|b|z|f|s|s]; try discriminate H.
  - destruct b; reflexivity.
  - unfold const_value. cbn [conv_any py_str code]. rewrite fstring_safe_dec_Z, int_code_evals. reflexivity.
  - apply const_str_value, H.
Qed.

(* the const check accepts exactly the values Python considers equal to the constant *)
Theorem const_exact : forall cv j, g_const cv = true -> const_accepts cv j = Some (py_eq j cv).
Proof. intros cv j H. unfold const_accepts. rewrite (const_value_self cv H). reflexivity. Qed.

Lemma tag_other s : tag_of (JOther s) = TDict \/ tag_of (JOther s) = TList.
Proof. destruct s as [|c r]; [right; reflexivity|]. cbn [tag_of]. destruct (c =? 123); auto. Qed.

(* and, for an instance of the constant's own JSON type, Python equality is identity *)
Theorem py_eq_same_type : forall cv j, g_const cv = true -> tag_of j = tag_of cv -> py_eq j cv = true -> j = cv.
Proof.
  intros cv j Hg Ht He. destruct cv as [|b|z|f|s|s]; try discriminate Hg.
  - destruct j as [|b'|z'|f'|s'|s']; try discriminate Ht.
    + destruct b, b'; try reflexivity; vm_compute in He; discriminate He.
    + destruct (tag_other s') as [E|E]; rewrite E in Ht; discriminate Ht.
  - destruct j as [|b'|z'|f'|s'|s']; try discriminate Ht.
    + apply py_eq_int_int in He. congruence.
    + destruct (tag_other s') as [E|E]; rewrite E in Ht; discriminate Ht.
  - apply py_eq_str_r. exact He.
Qed.

(* finding numeric_alias: Python == identifies true with 1 and 1.0 with 1 *)
Theorem const_numeric_alias_refuted :
  const_accepts (JInt 1%Z) (JBool true) = Some true /\
  const_accepts (JInt 1%Z) (JFloat {| f_tok := [49;46;48]; f_int := Some 1%Z; f_finite := true |}) = Some true.
Proof. split; vm_compute; reflexivity. Qed.

(* finding const_fstring_break: a quote in a string constant breaks the generated module *)
Theorem const_quote_refuted : const_value (JStr [97;34;98]) = None /\ const_value (JStr [105;116;39;115]) = None.
Proof. split; vm_compute; reflexivity. Qed.

Example g_const_nontrivial : g_const (JStr [97;32;233;92;98]) = true.
Proof. vm_compute. reflexivity. Qed.

Print Assumptions vfl_members_sub.
Print Assumptions vfl_exact.
Print Assumptions enum_dup_reported.
Print Assumptions enum_exact_str.
Print Assumptions enum_exact_int.
Print Assumptions int_enum_never_raises.
Print Assumptions literal_enum_exact.
Print Assumptions null_makes_nullable.
Print Assumptions no_null_plain.
Print Assumptions nullable_decode_listed.
Print Assumptions const_exact.
Print Assumptions py_eq_same_type.
