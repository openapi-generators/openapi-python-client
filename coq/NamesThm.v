(* NamesThm.v — proofs about Names.v: where the characters of a derived name come from, and which character classes are closed
   under the name pipeline (C09 python_identifier_valid; the path and inert classes serve C19, C05, C01). *)
From Coq Require Import NArith List Bool Lia.
Import ListNotations.
Require Import OPC.gen.GenTables OPC.Uni OPC.Names.
Require Export OPC.UniThm.
Require Import OPC.UniFast.
Open Scope N_scope.

Lemma sanitize_In v c : In c (sanitize v) -> In c v /\ (is_word c || is_delim c = true).
Proof. unfold sanitize. intro H. now apply filter_In in H. Qed.

Lemma sanitize_idem v : sanitize (sanitize v) = sanitize v.
Proof. apply filter_idem. Qed.

Lemma take_az_app s : forall a r, take_az s = (a, r) -> s = a ++ r.
Proof.
  induction s as [|x s IH]; cbn [take_az]; intros a r H; [now injection H as <- <-|].
  destruct (az x); [|now injection H as <- <-].
  destruct (take_az s) as [a' r']. injection H as <- <-. cbn [app]. f_equal. now apply IH.
Qed.

Lemma in_concat_rev (l : list str) c : In c (concat (rev l)) <-> In c (concat l).
Proof. rewrite !in_concat. now setoid_rewrite <- in_rev. Qed.

(* scan only regroups: every character it emits was in the rest of the run, in the pending gap or in a word already split off *)
Lemma scan_In fuel : forall s gap acc c,
  In c (concat (scan fuel s gap acc)) -> In c s \/ In c gap \/ In c (concat acc).
Proof.
  assert (Hflush : forall (gap : str) (acc : list str) c, In c (concat (match gap with [] => acc | _ => rev gap :: acc end)) ->
                                     In c gap \/ In c (concat acc)).
  { intros [|g gap] acc c H; [now right|]. cbn [concat] in H. apply in_app_or in H as [H|H]; [left; now apply in_rev|now right]. }
  induction fuel as [|f IH]; intros s gap acc c H; [apply in_concat_rev, Hflush in H; tauto|].
  destruct s as [|x s']; [apply in_concat_rev, Hflush in H; tauto|].
  assert (Hword : forall a r, take_az s' = (a, r) ->
            In c (concat (scan f r [] ((x :: a) :: match gap with [] => acc | _ => rev gap :: acc end))) ->
            In c (x :: s') \/ In c gap \/ In c (concat acc)).
  { intros a r E H'. apply take_az_app in E as ->. apply IH in H' as [H'|[[]|H']].
    - (* in what is left of the run after the word *) left. right. apply in_or_app. now right.
    - (* in the word x :: a just split off, or in an older one *)
      cbn [concat] in H'. apply in_app_or in H' as [[->|H']|H'].
      + left. now left.
      + left. right. apply in_or_app. now left.
      + apply Hflush in H'. tauto. }
  assert (Hgap : In c (concat (scan f s' (x :: gap) acc)) -> In c (x :: s') \/ In c gap \/ In c (concat acc)).
  { intro H'. apply IH in H' as [H'|[[->|H']|H']]; cbn [In]; tauto. }
  cbn [scan] in H. destruct (az x).
  - destruct (take_az s') as [a r] eqn:E. eauto.
  - destruct (AZ x); [|auto]. destruct s' as [|d s'']; [auto|]. destruct (az d); [|auto].
    destruct (take_az (d :: s'')) as [a r] eqn:E. eauto.
Qed.

Lemma runs_In s : forall cur c, (forall d, In d cur -> is_delim d = false) ->
  In c (concat (runs s cur)) -> (In c s \/ In c cur) /\ is_delim c = false.
Proof.
  assert (Hcur : forall (cur : str) c, (forall d, In d cur -> is_delim d = false) ->
            In c (concat (match cur with [] => [] | _ => [rev cur] end)) -> In c cur /\ is_delim c = false).
  { intros [|g cur] c Hd H; [destruct H|]. cbn [concat] in H. rewrite app_nil_r in H. apply in_rev in H. auto. }
  induction s as [|x s IH]; intros cur c Hd H; cbn [runs] in H.
  - apply Hcur in H; tauto.
  - destruct (is_delim x) eqn:Ex.
    + assert (H' : In c (concat (match cur with [] => [] | _ => [rev cur] end)) \/ In c (concat (runs s []))).
      { destruct cur; [now right|]. cbn [concat] in H |- *. rewrite app_nil_r. now apply in_app_or in H. }
      destruct H' as [H'|H']; [apply Hcur in H'; tauto|]. apply IH in H' as [[H'|[]] Hc]; [cbn [In]; tauto | intros d []].
    + apply IH in H as [[H|[->|H]] Hc]; cbn [In]; try tauto. intros d [<-|Hin]; auto.
Qed.

Lemma split_words_In v w c : In w (split_words v) -> In c w -> In c v /\ is_delim c = false.
Proof.
  unfold split_words. intros Hw Hc.
  assert (Hruns : forall r, In r (runs v []) -> In c r -> In c v /\ is_delim c = false).
  { intros r Hr Hcr. destruct (runs_In v [] c) as [[H|[]] Hd]; [intros d []|apply in_concat; eauto|auto]. }
  destruct (existsb c_isupper v); [|eauto].
  apply in_flat_map in Hw as [r [Hr Hw]]. apply (Hruns r Hr). unfold case_split in Hw.
  destruct (scan_In (S (length r)) r [] [] c) as [H|[[]|[]]]; [apply in_concat; eauto|exact H].
Qed.

Lemma join_In sep : forall ws c, In c (join sep ws) -> In c sep \/ exists w, In w ws /\ In c w.
Proof.
  induction ws as [|w ws IH]; intros c H; [destruct H|].
  destruct ws as [|w2 ws'].
  - simpl in H. right. exists w. split; [now left | exact H].
  - change (join sep (w :: w2 :: ws')) with (w ++ sep ++ join sep (w2 :: ws')) in H.
    apply in_app_or in H as [H|H]; [right; exists w; split; [now left | exact H]|].
    apply in_app_or in H as [H|H]; [now left|].
    destruct (IH _ H) as [Hs|[w' [Hw' Hc]]]; [now left|]. right. exists w'. split; [now right | exact Hc].
Qed.

Lemma split_word_char value w c : In w (split_words (sanitize value)) -> In c w -> In c value /\ is_word c = true.
Proof.
  intros Hw Hc. destruct (split_words_In _ _ _ Hw Hc) as [Hin Hd].
  apply sanitize_In in Hin as [Hin Hwd]. now rewrite Hd, orb_false_r in Hwd.
Qed.

Lemma lower_underscore : lower [95] = [95].
Proof. vm_compute. reflexivity. Qed.
Lemma lower_hyphen : lower [45] = [45].
Proof. vm_compute. reflexivity. Qed.

(* Every character of a snake/kebab-cased name is in the lower-casing of a word character of the source or of the separator.
   So a class Q that contains those contains the whole name; xid_continue (C09), path_char (C19) and Sites.inert_char (C05)
   are the three classes used. *)
Section CharClass.
  Variable Q : N -> bool.

  Lemma cased_words_all value sep :
    (forall c, In c value -> is_word c = true -> forallb Q (lower_c c) = true) ->
    forallb Q (lower sep) = true ->
    forallb Q (lower (join sep (split_words (sanitize value)))) = true.
  Proof.
    intros Hword Hsep. unfold lower in *. apply forallb_flat_map. intros c Hc.
    apply join_In in Hc as [Hc|[w [Hw Hc]]].
    - rewrite forallb_forall in Hsep |- *. intros d Hd. apply Hsep, in_flat_map. eauto.
    - destruct (split_word_char _ _ _ Hw Hc). auto.
  Qed.

  Lemma fix_reserved_all s : Q 95 = true -> forallb Q s = true -> forallb Q (fix_reserved s) = true.
  Proof.
    intros H95 H. unfold fix_reserved. destruct (_ || _); [|exact H]. rewrite forallb_app, H. cbn [forallb]. now rewrite H95.
  Qed.

  Lemma python_identifier_all value prefix :
    forallb Q prefix = true -> Q 95 = true -> (forall c, is_word c = true -> forallb Q (lower_c c) = true) ->
    forallb Q (python_identifier value prefix false) = true.
  Proof.
    intros Hp H95 Hword. unfold python_identifier.
    assert (Hx : forallb Q (fix_reserved (snake_case (sanitize value))) = true).
    { apply fix_reserved_all, cased_words_all; auto. rewrite lower_underscore. cbn [forallb]. now rewrite H95. }
    destruct (_ || _); [|exact Hx]. now rewrite forallb_app, Hp, Hx.
  Qed.
End CharClass.

(* table facts, re-established by computation on the regenerated tables; the sweeps over a whole case map (fact_lower_xidc,
   fact_title_xidc, fact_lower_path) read the class tables through UniFast.v *)
Lemma fact_regex_shapes : regex_shapes_known = true.
Proof. vm_compute. reflexivity. Qed.
Lemma fact_lower_xidc : map_preserves xid_continue xid_continue map_lower = true.
Proof.
  rewrite (map_preserves_ext _ xid_continue_f _ xid_continue_f) by (intro; symmetry; apply xid_continue_f_eq).
  vm_compute. reflexivity.
Qed.
Lemma fact_title_xidc : map_preserves xid_continue xid_continue map_title = true.
Proof.
  rewrite (map_preserves_ext _ xid_continue_f _ xid_continue_f) by (intro; symmetry; apply xid_continue_f_eq).
  vm_compute. reflexivity.
Qed.
Lemma fact_us_xidc : xid_continue 95 = true.
Proof. vm_compute. reflexivity. Qed.
Lemma fact_kw_suffix :
  forallb (fun k => negb (mem_str (k ++ [95]) keywords)) (keywords ++ reserved_words) = true.
Proof. vm_compute. reflexivity. Qed.
Lemma fact_field_prefix_good : good_prefix [102;105;101;108;100;95] = true.
Proof. vm_compute. reflexivity. Qed.
Lemma fact_tag_prefix_good : good_prefix [116;97;103] = true.
Proof. vm_compute. reflexivity. Qed.

Lemma lower_c_xidc c : xid_continue c = true -> forallb xid_continue (lower_c c) = true.
Proof. apply (map_preserves_sound xid_continue xid_continue map_lower fact_lower_xidc); auto. Qed.
Lemma title_c_xidc c : xid_continue c = true -> forallb xid_continue (title_c c) = true.
Proof. apply (map_preserves_sound xid_continue xid_continue map_title fact_title_xidc); auto. Qed.

Lemma g_xid_char value c : g_xid value = true -> In c value -> is_word c = true -> xid_continue c = true.
Proof.
  unfold g_xid. rewrite forallb_forall. intros H Hin Hw. specialize (H _ Hin). now rewrite Hw in H.
Qed.

Lemma snake_xidc value : g_xid value = true -> forallb xid_continue (snake_case (sanitize value)) = true.
Proof.
  intro Hg. unfold snake_case. apply cased_words_all.
  - intros c Hc Hw. apply sanitize_In in Hc as [Hc _]. eapply lower_c_xidc, g_xid_char; eauto.
  - rewrite lower_underscore. cbn [forallb]. now rewrite fact_us_xidc.
Qed.

Lemma fix_reserved_not_keyword s : mem_str (fix_reserved s) keywords = false.
Proof.
  unfold fix_reserved. destruct (mem_str s reserved_words || mem_str s keywords) eqn:E.
  - pose proof fact_kw_suffix as F. rewrite forallb_forall in F.
    assert (Hin: In s (keywords ++ reserved_words)).
    { apply orb_true_iff in E as [E|E]; apply mem_str_In in E; apply in_or_app; [now right | now left]. }
    specialize (F _ Hin). now apply negb_true_iff in F.
  - now apply orb_false_iff in E as [_ E].
Qed.

Lemma prefixed_not_keyword p x : good_prefix p = true -> mem_str (p ++ x) keywords = false.
Proof.
  unfold good_prefix. intro H. apply andb_true_iff in H as [_ H]. apply negb_true_iff in H.
  destruct (mem_str (p ++ x) keywords) eqn:E; [|reflexivity].
  apply mem_str_In in E. assert (existsb (is_prefix p) keywords = true).
  { apply existsb_exists. exists (p ++ x). split; [exact E | apply is_prefix_app]. }
  congruence.
Qed.

Lemma prefixed_identifier p x :
  good_prefix p = true -> forallb xid_continue x = true -> is_identifier (p ++ x) = true.
Proof.
  unfold good_prefix. intros H Hx. apply andb_true_iff in H as [H _].
  destruct p as [|c p]; [discriminate|]. simpl in *.
  apply andb_true_iff in H as [H1 H2]. now rewrite H1, forallb_app, H2, Hx.
Qed.

Theorem python_identifier_valid value prefix :
  good_prefix prefix = true -> g_xid value = true ->
  is_identifier (python_identifier value prefix false) = true /\
  mem_str (python_identifier value prefix false) keywords = false.
Proof.
  intros Hp Hg. unfold python_identifier.
  set (v3 := fix_reserved (snake_case (sanitize value))).
  assert (Hx: forallb xid_continue v3 = true) by (apply fix_reserved_all, snake_xidc, Hg; apply fact_us_xidc).
  destruct (negb (is_identifier v3) || starts_us value) eqn:E.
  - split; [now apply prefixed_identifier | now apply prefixed_not_keyword].
  - apply orb_false_iff in E as [E _]. apply negb_false_iff in E. split; [exact E|].
    apply fix_reserved_not_keyword.
Qed.

(* the guard is necessary: witness "a²" (U+00B2 is \w but not XID_Continue) *)
Theorem python_identifier_refuted :
  exists value, g_xid value = false /\
    is_identifier (python_identifier value [102;105;101;108;100;95] false) = false.
Proof. exists [97; 178]. vm_compute. split; reflexivity. Qed.

(* without snake-casing (the raw-name fallback) delimiters survive: witness "a-b" *)
Theorem raw_fallback_refuted :
  exists value, g_xid value = true /\
    is_identifier (python_identifier value [102;105;101;108;100;95] true) = false.
Proof. exists [97; 45; 98]. vm_compute. split; reflexivity. Qed.

Example python_identifier_valid_nonvacuous :
  good_prefix [102;105;101;108;100;95] = true /\ g_xid [72;101;108;108;111;32;87;246;114;108;100;45;49] = true.
Proof. vm_compute. split; reflexivity. Qed.

(* path-component safety of derived names (C19 writes_confined, C05 identifier slots) *)
Definition path_char (x : N) : bool := negb (memN x [0; 34; 39; 46; 47; 92; 10; 13]).

Lemma fact_word_path : forallb (fun x => negb (is_word x)) [0; 34; 39; 46; 47; 92; 10; 13] = true.
Proof. vm_compute. reflexivity. Qed.
Lemma fact_lower_path : map_preserves is_word path_char map_lower = true.
Proof. rewrite (map_preserves_ext _ is_word_f _ path_char) by (auto using eq_sym, is_word_f_eq). vm_compute. reflexivity. Qed.
Lemma underscore_path : path_char 95 = true.
Proof. reflexivity. Qed.
Lemma hyphen_path : path_char 45 = true.
Proof. reflexivity. Qed.

Lemma word_path_char c : is_word c = true -> path_char c = true.
Proof.
  intro Hw. unfold path_char. apply negb_true_iff. destruct (memN c _) eqn:E; [|reflexivity].
  apply memN_In in E. pose proof fact_word_path as F. rewrite forallb_forall in F.
  specialize (F _ E). rewrite Hw in F. discriminate.
Qed.

Lemma lower_c_path c : is_word c = true -> forallb path_char (lower_c c) = true.
Proof. apply (map_preserves_sound is_word path_char map_lower fact_lower_path). exact word_path_char. Qed.

Theorem python_identifier_path_chars value prefix :
  forallb path_char prefix = true ->
  forallb path_char (python_identifier value prefix false) = true.
Proof. intro Hp. apply python_identifier_all; [exact Hp | exact underscore_path | exact lower_c_path]. Qed.

Theorem kebab_case_path_chars value : forallb path_char (kebab_case value) = true.
Proof.
  unfold kebab_case. apply cased_words_all; [auto using lower_c_path|].
  rewrite lower_hyphen. cbn [forallb]. now rewrite hyphen_path.
Qed.

Theorem python_identifier_nonempty value prefix :
  good_prefix prefix = true -> python_identifier value prefix false <> [].
Proof.
  intro Hg. unfold python_identifier.
  assert (Hpne: prefix <> []).
  { unfold good_prefix in Hg. apply andb_true_iff in Hg as [Hg _]. destruct prefix; discriminate. }
  destruct (negb (is_identifier _) || starts_us value) eqn:E.
  - intro H. apply app_eq_nil in H as [H _]. contradiction.
  - apply orb_false_iff in E as [E _]. apply negb_false_iff in E. intro H. rewrite H in E. discriminate.
Qed.
