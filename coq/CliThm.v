(* CliThm.v -- proofs about Cli.v (C06): exit rule, rejected documents write nothing, no diagnostic is dropped on the
   way to the CLI, the retry loops and the request-body reference chain terminate within their bounds. *)
From Coq Require Import NArith List Bool Lia Arith.
Import ListNotations.
Require Import OPC.Uni OPC.UniThm OPC.Fs OPC.Retry OPC.gen.GenCli OPC.Cli.

(* what the model assumes of the code, decided on the regenerated facts of gen/GenCli.v: levels, exit rule, early returns,
   aggregation, loop skeletons, cycle guard, isinstance guards on values read out of classes_by_name, None-tolerant uses of
   error.detail, the header-or-guess media type dispatch of _get_document *)
Theorem code_shape : code_shape_ok = true.
Proof. vm_compute. reflexivity. Qed.

Lemma level_eqb_eq a b : level_eqb a b = true <-> a = b.
Proof. destruct a, b; simpl; split; intro H; try reflexivity; discriminate. Qed.

Lemma scan_level_error errs : scan_level errs = LError <-> exists e, In e errs /\ d_level e = LError.
Proof.
  induction errs as [|e t IH]; simpl.
  - split; [discriminate | intros (e & [] & _)].
  - unfold is_error. destruct (level_eqb (d_level e) LError) eqn:El.
    + apply level_eqb_eq in El. split; [intros _; exists e; auto | reflexivity].
    + split.
      * intro H. apply IH in H. destruct H as (x & Hx & Hl). exists x. auto.
      * intros (x & [Hx | Hx] & Hl).
        -- subst x. rewrite Hl in El. discriminate.
        -- apply IH. exists x. auto.
Qed.

Theorem exit_status : forall (errs : list diag) (fow : bool),
  exit_code errs fow <> 0%N <-> (exists e, In e errs /\ d_level e = LError) \/ (fow = true /\ errs <> []).
Proof.
  intros errs fow. rewrite <- scan_level_error. unfold exit_code, handle_errors.
  destruct errs as [|e t]; cbn [co_exit].
  - cbn. split; [congruence|]. intros [H | (_ & H)]; [discriminate | congruence].
  - destruct (scan_level (e :: t)), fow; cbn; split; try (intros _; discriminate).
    + intros _. right. split; [reflexivity | discriminate].
    + congruence.
    + intros [H | (H & _)]; discriminate.
    + now left.
    + now left.
Qed.

Theorem exit_code_binary errs fow : exit_code errs fow = 0%N \/ exit_code errs fow = 1%N.
Proof.
  unfold exit_code, handle_errors. destruct errs; simpl; auto.
  destruct (level_eqb _ _ || fow); auto.
Qed.

(* everything handed to handle_errors is printed, in order *)
Theorem all_printed errs fow : co_printed (handle_errors errs fow) = map d_id errs.
Proof. destruct errs; reflexivity. Qed.

Theorem reject_writes_nothing : forall sg mp sc t,
  rejected sc = true -> snd (generate_with sg mp sc t) = t.
Proof.
  intros sg mp sc t H. unfold generate_with, rejected in *.
  destruct (sc_load sc); [reflexivity|].
  destruct (sc_validation sc); [|discriminate].
  destruct (sg || sc_in_ok sc); reflexivity.
Qed.

(* ... and is reported as exactly one ERROR-level diagnostic, exit status 1 (inside the guard) *)
Theorem reject_is_error : forall sg mp sc fow t,
  rejected sc = true -> g_scalar_document sg sc = true ->
  exists id, cli_with sg mp sc fow t = (Ret (mkOut 1 (Some LError) [id]), t)
             /\ (sc_load sc = Some id \/ (sc_load sc = None /\ sc_validation sc = Some id)).
Proof.
  intros sg mp sc fow t H G. unfold cli_with, generate_with, rejected, g_scalar_document in *.
  destruct (sc_load sc) as [id|].
  - exists id. split; [reflexivity | left; reflexivity].
  - destruct (sc_validation sc) as [id|]; [|discriminate].
    rewrite G. exists id. split; [reflexivity | right; split; reflexivity].
Qed.

Theorem crash_writes_nothing : forall sg mp sc t, fst (generate_with sg mp sc t) = Crash -> snd (generate_with sg mp sc t) = t.
Proof.
  intros sg mp sc t. unfold generate_with.
  destruct (sc_load sc); [discriminate|].
  destruct (sc_validation sc).
  - destruct (sg || sc_in_ok sc); [discriminate | reflexivity].
  - destruct (negb (sc_parent_exists sc) && negb (sc_dir_exists sc) && negb mp); [reflexivity|].
    destruct (snd (build _ _ _ _ _ _ _)); discriminate.
Qed.

(* inside the two guards the model never takes the Crash branch *)
Theorem no_crash_in_guard : forall sg mp sc t,
  g_scalar_document sg sc = true -> g_parent_dir mp sc = true -> fst (generate_with sg mp sc t) <> Crash.
Proof.
  intros sg mp sc t G1 G2. unfold generate_with, g_scalar_document, g_parent_dir in *.
  destruct (sc_load sc); [discriminate|].
  destruct (sc_validation sc).
  - rewrite G1. discriminate.
  - destruct (sc_parent_exists sc), (sc_dir_exists sc), mp; simpl in *; try discriminate;
      destruct (snd (build _ _ _ _ _ _ _)); discriminate.
Qed.
Corollary repaired_never_crashes : forall sc t, fst (generate_with true true sc t) <> Crash.
Proof.
  intros sc t. apply no_crash_in_guard.
  - unfold g_scalar_document. destruct (sc_load sc), (sc_validation sc); reflexivity.
  - unfold g_parent_dir. destruct (sc_load sc), (sc_validation sc); try reflexivity. now rewrite !orb_true_r.
Qed.

(* in_ok, val, parent: sc_in_ok, sc_validation, sc_parent_exists; nothing else to report *)
Definition sc_witness (in_ok : bool) (val : option N) (parent : bool) : scenario :=
  mkScenario None in_ok val (mkData [] [] [] (Build_doc [] [])) [] 0%N FNone [] false false parent 1%N.
(* outside the guards the model does crash: generate_with at the flag values false, whatever gen_scalar_guard and
   gen_mkdir_parents say of the code (known findings scalar_document_crash, missing_parent_dir) *)
Theorem scalar_document_crash_refuted : exists sc t, g_scalar_document false sc = false /\ fst (generate_with false false sc t) = Crash.
Proof. exists (sc_witness false (Some 7%N) true), []. split; reflexivity. Qed.
Theorem missing_parent_dir_refuted : exists sc t, g_parent_dir false sc = false /\ fst (generate_with true false sc t) = Crash.
Proof. exists (sc_witness true None false), []. split; reflexivity. Qed.
Example guards_satisfiable : g_scalar_document false (sc_witness true (Some 7%N) true) = true
  /\ g_parent_dir false (sc_witness true None true) = true
  /\ fst (generate_with false false (sc_witness true None true) []) = Ret [].
Proof. repeat split. Qed.

(* no stage drops a diagnostic: when the writer ran, the list handed to handle_errors contains every error of every stage
   and nothing else *)
Theorem errors_are_values : forall sg mp sc t errs t',
  generate_with sg mp sc t = (Ret errs, t') ->
  rejected sc = false -> (sc_dir_exists sc && negb (sc_overwrite sc)) = false ->
  forall e, (In e (g_schema_errs (sc_data sc)) \/ In e (g_param_errs (sc_data sc))
             \/ (exists c, In c (g_collections (sc_data sc)) /\ In e c) \/ In e (sc_hooks sc))
            <-> In e errs.
Proof.
  intros sg mp sc t errs t' H R D e. unfold generate_with, rejected in *.
  destruct (sc_load sc); [discriminate|]. destruct (sc_validation sc); [discriminate|].
  destruct (negb (sc_parent_exists sc) && negb (sc_dir_exists sc) && negb mp); [discriminate|].
  unfold build in H. rewrite D in H. cbn [snd fst] in H. inversion H; subst errs t'. clear H.
  unfold get_errors, openapi_errors. rewrite !in_app_iff, in_concat.
  split.
  - intros [H | [H | [(c & Hc & He) | H]]]; auto.
    left. exists c. auto.
  - intros [(c & Hc & He) | [[H | H] | H]]; auto.
    right. right. left. exists c. auto.
Qed.
Corollary errors_reach_cli : forall sg mp sc t errs t' fow e,
  generate_with sg mp sc t = (Ret errs, t') ->
  rejected sc = false -> (sc_dir_exists sc && negb (sc_overwrite sc)) = false ->
  (In e (g_schema_errs (sc_data sc)) \/ In e (g_param_errs (sc_data sc))
   \/ (exists c, In c (g_collections (sc_data sc)) /\ In e c) \/ In e (sc_hooks sc)) ->
  In (d_id e) (co_printed (handle_errors errs fow)) /\ (d_level e = LError -> exit_code errs fow = 1%N).
Proof.
  intros sg mp sc t errs t' fow e H R D Hin.
  apply (errors_are_values sg mp sc t errs t' H R D) in Hin. split.
  - rewrite all_printed. now apply in_map.
  - intro Hl. destruct (exit_code_binary errs fow) as [Z | O]; [|exact O].
    exfalso. assert (Hn : exit_code errs fow <> 0%N) by (apply exit_status; left; exists e; auto). auto.
Qed.

Section WorklistThm.
  Variables (I S E : Type) (step : S -> I -> S * @verdict E).

  Lemma round_accounting : forall todo s,
    let r := round step s todo in
    length (rr_stay r) = length (rr_next r)
    /\ (if rr_progress r then length (rr_next r) + length (rr_drop r) < length todo
        else length (rr_next r) + length (rr_drop r) = length todo)%nat.
  Proof.
    induction todo as [|i t IH]; intro s; cbn [round]; [cbn; lia|].
    specialize (IH (fst (step s i))). cbv zeta in IH. revert IH.
    destruct (snd (step s i)); cbn [rr_stay rr_next rr_drop rr_progress length];
      destruct (rr_progress (round step (fst (step s i)) t)); lia.
  Qed.

  Lemma loop_spec : forall fuel s todo drops n tr, (length todo < fuel)%nat ->
    let r := loop step fuel s todo drops n tr in
    lr_exhausted r = false /\ (n < lr_rounds r <= n + length todo + 1)%nat /\ Runs step s todo drops n tr r.
  Proof.
    induction fuel as [|f IH]; intros s todo drops n tr Hf; [lia|].
    cbn [loop]. destruct (rr_progress (round step s todo)) eqn:P.
    - pose proof (round_accounting todo s) as L. cbv zeta in L. rewrite P in L.
      specialize (IH (rr_state (round step s todo)) (rr_next (round step s todo)) (drops ++ rr_drop (round step s todo)) (Datatypes.S n) (tr ++ todo)).
      cbv zeta in IH. destruct IH as (A & B & C); [lia|].
      split; [exact A|]. split; [lia|]. apply RunsMore; assumption.
    - cbn. split; [reflexivity|]. split; [lia|]. apply RunsStop. exact P.
  Qed.

  Lemma Runs_deterministic s todo drops n tr r1 : Runs step s todo drops n tr r1 -> forall r2, Runs step s todo drops n tr r2 -> r1 = r2.
  Proof.
    induction 1 as [s todo drops n tr P | s todo drops n tr res P R IH]; intros r2 H2.
    - inversion H2; subst; [reflexivity | congruence].
    - inversion H2; subst; [congruence | apply IH; assumption].
  Qed.

  (* for EVERY step function (success oracle): the loop ends by its own exit condition, after at most |worklist| + 1
     rounds, and the fuelled function computes the fuel-free semantics *)
  Theorem loops_terminate : forall s todo,
    lr_exhausted (run_loop step s todo) = false
    /\ (1 <= lr_rounds (run_loop step s todo) <= length todo + 1)%nat
    /\ Runs step s todo [] O [] (run_loop step s todo).
  Proof.
    intros s todo. unfold run_loop.
    pose proof (loop_spec (Datatypes.S (length todo)) s todo [] O [] (Nat.lt_succ_diag_r _)) as H. cbv zeta in H.
    destruct H as (A & B & C). repeat split; try assumption; lia.
  Qed.
  Theorem runs_total : forall s todo drops n tr, exists r, Runs step s todo drops n tr r /\ (lr_rounds r <= n + length todo + 1)%nat.
  Proof.
    intros. exists (loop step (Datatypes.S (length todo)) s todo drops n tr).
    pose proof (loop_spec (Datatypes.S (length todo)) s todo drops n tr (Nat.lt_succ_diag_r _)) as H. cbv zeta in H.
    destruct H as (_ & B & C). split; [assumption | lia].
  Qed.
  Theorem fuel_irrelevant : forall fuel s todo, (length todo < fuel)%nat ->
    loop step fuel s todo [] O [] = run_loop step s todo.
  Proof.
    intros fuel s todo H.
    pose proof (loop_spec fuel s todo [] O [] H) as A. cbv zeta in A. destruct A as (_ & _ & A).
    destruct (loops_terminate s todo) as (_ & _ & B).
    exact (Runs_deterministic _ _ _ _ _ _ A _ B).
  Qed.

  Inductive Visits : S -> list I -> S -> list I -> Prop :=
  | VisitHere s todo : Visits s todo s todo
  | VisitNext s todo s' todo' :
      rr_progress (round step s todo) = true ->
      Visits (rr_state (round step s todo)) (rr_next (round step s todo)) s' todo' -> Visits s todo s' todo'.

  Lemma Runs_keeps_acc s todo drops n tr r : Runs step s todo drops n tr r -> forall e, In e drops -> In e (lr_errors r).
  Proof.
    induction 1 as [s todo drops n tr P | s todo drops n tr res P R IH]; intros e He.
    - cbn. apply in_or_app. left. exact He.
    - apply IH. apply in_or_app. left. exact He.
  Qed.

  Lemma Runs_errors s todo drops n tr r : Runs step s todo drops n tr r ->
    forall s' todo', Visits s todo s' todo' ->
    forall e, (In e (rr_drop (round step s' todo')) \/ (rr_progress (round step s' todo') = false /\ In e (rr_stay (round step s' todo')))) ->
    In e (lr_errors r).
  Proof.
    intros HR s' todo' HV. revert drops n tr r HR.
    induction HV as [s todo | s todo s' todo' P V IH]; intros drops n tr r HR e He.
    - inversion HR; subst.
      + cbn. rewrite !in_app_iff. destruct He as [He | (_ & He)]; auto.
      + destruct He as [He | (Hp & _)]; [|congruence].
        eapply Runs_keeps_acc; [eassumption|]. apply in_or_app. right. exact He.
    - inversion HR; subst; [congruence|]. eapply IH; eassumption.
  Qed.

  (* no error is lost: every permanent failure of every round and every re-queue failure of the last round is in the result *)
  Theorem loop_errors_complete : forall s todo s' todo' e,
    Visits s todo s' todo' ->
    (In e (rr_drop (round step s' todo')) \/ (rr_progress (round step s' todo') = false /\ In e (rr_stay (round step s' todo')))) ->
    In e (lr_errors (run_loop step s todo)).
  Proof.
    intros s todo s' todo' e V H. destruct (loops_terminate s todo) as (_ & _ & R).
    eapply Runs_errors; eassumption.
  Qed.
  (* ... and in the last round every item still on the list produced one (nothing stays pending silently) *)
  Theorem last_round_all_reported : forall s todo,
    rr_progress (round step s todo) = false ->
    (length (rr_stay (round step s todo)) + length (rr_drop (round step s todo)) = length todo)%nat.
  Proof. intros s todo H. pose proof (round_accounting todo s) as R. cbv zeta in R. rewrite H in R. lia. Qed.
End WorklistThm.
Arguments Visits {I S E} step _ _ _ _.

(* Retry.v's loop (dependency oracle, used by C12) is an instance, so its fuel is sufficient too *)
Lemma round_retry g : forall todo done,
  Retry.round g done todo = (rr_state (Cli.round (step_retry g) done todo), rr_next (Cli.round (step_retry g) done todo))
  /\ rr_drop (Cli.round (step_retry g) done todo) = [].
Proof.
  induction todo as [|n t IH]; intro done; cbn [Retry.round Cli.round].
  - split; reflexivity.
  - unfold step_retry. destruct (ready g done n) eqn:R; cbn [fst snd].
    + destruct (IH (n :: done)) as (A & B). rewrite A. cbn. split; [reflexivity | exact B].
    + destruct (IH done) as (A & B). rewrite A. cbn. split; [reflexivity | exact B].
Qed.

Lemma retry_progress g todo done :
  rr_progress (Cli.round (step_retry g) done todo) = negb (Nat.eqb (length (rr_next (Cli.round (step_retry g) done todo))) (length todo)).
Proof.
  pose proof (round_accounting _ _ _ (step_retry g) todo done) as R. cbv zeta in R. destruct R as (_ & R).
  destruct (round_retry g todo done) as (_ & Dr). rewrite Dr in R. cbn [length] in R.
  destruct (rr_progress (Cli.round (step_retry g) done todo)); symmetry.
  - apply negb_true_iff, Nat.eqb_neq. lia.
  - apply negb_false_iff, Nat.eqb_eq. lia.
Qed.

Theorem retry_is_instance g : forall fuel done todo drops n tr,
  Retry.retry fuel g done todo = (lr_state (loop (step_retry g) fuel done todo drops n tr), lr_left (loop (step_retry g) fuel done todo drops n tr)).
Proof.
  induction fuel as [|f IH]; intros done todo drops n tr; cbn [Retry.retry loop].
  - reflexivity.
  - rewrite retry_progress. destruct (round_retry g todo done) as (A & _). rewrite A. cbn [snd fst].
    destruct (Nat.eqb _ _); cbn [negb].
    + reflexivity.
    + apply IH.
Qed.
Corollary retry_process_terminates g todo :
  Retry.process g todo = (lr_state (run_loop (step_retry g) [] todo), lr_left (run_loop (step_retry g) [] todo))
  /\ lr_exhausted (run_loop (step_retry g) [] todo) = false.
Proof.
  split; [apply retry_is_instance|]. apply loops_terminate.
Qed.

Definition refs_of (tb : rb_table) : list str :=
  flat_map (fun kv => match snd kv with RRef r => [r] | RBody _ => [] end) tb.
Lemma refs_of_len tb : (length (refs_of tb) <= length tb)%nat.
Proof.
  induction tb as [|[k v] tb IH]; [cbn; lia|].
  unfold refs_of in *. cbn [flat_map snd]. rewrite app_length. destruct v; cbn [length]; lia.
Qed.
Lemma rb_get_ref tb k r : rb_get tb k = Some (RRef r) -> In r (refs_of tb).
Proof.
  induction tb as [|[k' v] tb IH]; cbn; [discriminate|].
  destruct (str_eqb k' k).
  - intro H. inversion H; subst. cbn. now left.
  - intro H. apply in_or_app. right. now apply IH.
Qed.

Lemma iter_plus {A} (f : A -> A) a b x : Nat.iter (a + b) f x = Nat.iter a f (Nat.iter b f x).
Proof.
  induction a as [|a IH]; [reflexivity|].
  change (f (Nat.iter (a + b) f x) = f (Nat.iter a f (Nat.iter b f x))). now rewrite IH.
Qed.
Lemma iter_succ_r {A} (f : A -> A) n x : Nat.iter (Datatypes.S n) f x = Nat.iter n f (f x).
Proof. rewrite <- Nat.add_1_r. apply (iter_plus f n 1). Qed.

Section Chain.
  Variable tb : rb_table.
  Notation chain := (chain tb).

  (* loop invariant: the visited list has no repetition; all but the first visited reference come out of the table; the
     list is exactly the references met on the chain so far *)
  Definition resolve_inv (b0 b : option rbody) (seen : list str) (steps : nat) : Prop :=
    NoDup seen
    /\ (seen = [] \/ exists first rest, seen = rest ++ [first] /\ incl rest (refs_of tb))
    /\ (seen <> [] -> forall r, b = Some (RRef r) -> In r (refs_of tb))
    /\ steps = length seen
    /\ b = chain b0 steps
    /\ (forall x, In x seen -> exists i, (i < steps)%nat /\ chain b0 i = Some (RRef x)).

  Lemma inv_len b0 b seen steps : resolve_inv b0 b seen steps -> (length seen <= S (length tb))%nat.
  Proof.
    intros (ND & Sh & _). destruct Sh as [-> | (first & rest & -> & Hincl)]; [cbn; lia|].
    apply NoDup_remove_1 in ND. rewrite app_nil_r in ND.
    pose proof (NoDup_incl_length ND Hincl) as L. pose proof (refs_of_len tb). rewrite app_length. cbn. lia.
  Qed.

  Lemma resolve_loop_spec b0 : forall fuel b seen steps,
    resolve_inv b0 b seen steps -> (S (length tb) < fuel + length seen)%nat ->
    let st := resolve_loop fuel tb b seen steps in
    rl_exhausted st = false /\ resolve_inv b0 (rl_body st) (rl_seen st) (rl_steps st)
    /\ (forall r, rl_body st = Some (RRef r) -> In r (rl_seen st)).
  Proof.
    induction fuel as [|f IH]; intros b seen steps HI Hf.
    - pose proof (inv_len _ _ _ _ HI). cbn in Hf. lia.
    - cbn [resolve_loop]. destruct b as [[r | id]|].
      + destruct (mem_str r seen) eqn:M.
        * cbn. split; [reflexivity|]. split; [exact HI|]. intros r' H. inversion H; subst. now apply mem_str_In.
        * assert (Hn : ~ In r seen) by (intro H; apply mem_str_In in H; congruence).
          destruct HI as (ND & Sh & Tb & St & Ch & Sn).
          apply IH; [|cbn [length]; lia].
          repeat split.
          -- constructor; assumption.
          -- right. destruct Sh as [-> | (first & rest & -> & Hincl)].
             ++ exists r, []. split; [reflexivity | intros x []].
             ++ exists first, (r :: rest). split; [reflexivity|].
                intros x [<- | Hx]; [|now apply Hincl].
                apply (Tb ltac:(destruct rest; discriminate) r eq_refl).
          -- intros _ r' H. eapply rb_get_ref. exact H.
          -- cbn [length]. now rewrite St.
          -- change (chain b0 (S steps)) with (follow tb (chain b0 steps)). rewrite <- Ch. reflexivity.
          -- intros x [<- | Hx].
             ++ exists steps. split; [lia | now rewrite <- Ch].
             ++ destruct (Sn x Hx) as (i & Hi & Hc). exists i. split; [lia | exact Hc].
      + cbn. split; [reflexivity|]. split; [exact HI | discriminate].
      + cbn. split; [reflexivity|]. split; [exact HI | discriminate].
  Qed.

  Lemma inv_init b0 : resolve_inv b0 b0 [] O.
  Proof.
    repeat split; try reflexivity.
    - constructor.
    - now left.
    - intro H. now contradiction H.
    - intros x [].
  Qed.

  Lemma resolve_run_spec b0 :
    let st := resolve_run tb b0 in
    rl_exhausted st = false /\ resolve_inv b0 (rl_body st) (rl_seen st) (rl_steps st)
    /\ (forall r, rl_body st = Some (RRef r) -> In r (rl_seen st)).
  Proof. apply resolve_loop_spec; [apply inv_init | cbn; lia]. Qed.

  (* the loop stops by its own condition within |components| + 1 steps *)
  Theorem body_ref_terminates b0 :
    rl_exhausted (resolve_run tb b0) = false /\ (rl_steps (resolve_run tb b0) <= length tb + 1)%nat.
  Proof.
    destruct (resolve_run_spec b0) as (A & HI & _). split; [exact A|].
    pose proof (inv_len _ _ _ _ HI) as L. destruct HI as (_ & _ & _ & St & _). lia.
  Qed.

  Lemma chain_plus b0 a b : chain b0 (a + b) = Nat.iter a (follow tb) (chain b0 b).
  Proof. apply iter_plus. Qed.

  Lemma chain_stays b0 n : is_ref (chain b0 n) = false -> forall m, (n <= m)%nat -> chain b0 m = chain b0 n.
  Proof.
    intros H m Hm. replace m with ((m - n) + n)%nat by lia. rewrite chain_plus.
    induction (m - n)%nat as [|k IH]; [reflexivity|].
    change (follow tb (Nat.iter k (follow tb) (chain b0 n)) = chain b0 n). rewrite IH. destruct (chain b0 n) as [[r | id]|]; [discriminate | reflexivity | reflexivity].
  Qed.
  Lemma chain_shift b0 i j : chain b0 i = chain b0 j -> forall m, chain b0 (m + i) = chain b0 (m + j).
  Proof. intros H m. now rewrite !chain_plus, H. Qed.
  Lemma chain_periodic b0 i p : chain b0 i = chain b0 (p + i) -> forall q, chain b0 i = chain b0 (q * p + i).
  Proof.
    intros H q. induction q as [|q IH]; [reflexivity|].
    rewrite IH. replace (S q * p + i)%nat with (q * p + (p + i))%nat by lia.
    apply chain_shift. exact H.
  Qed.

  (* the result read on the chain; k is the number of hops the loop made *)
  Lemma resolve_reference_cases b0 : exists k,
    match resolve_reference tb b0 with
    | ResCircular r => chain b0 k = Some (RRef r) /\ exists i, (i < k)%nat /\ chain b0 i = Some (RRef r)
    | ResBody id => chain b0 k = Some (RBody id)
    | ResUnresolved _ | ResNone => chain b0 k = None
    end.
  Proof.
    exists (rl_steps (resolve_run tb b0)). unfold resolve_reference.
    destruct (resolve_run_spec b0) as (_ & HI & Hs). destruct HI as (_ & _ & _ & _ & Ch & Sn). rewrite <- Ch.
    destruct b0 as [x|]; [|reflexivity].
    destruct (rl_body (resolve_run tb (Some x))) as [[r | id]|].
    - split; [reflexivity | exact (Sn r (Hs r eq_refl))].
    - reflexivity.
    - destruct (rl_seen _); reflexivity.
  Qed.

  (* a chain that never leaves references (a cycle) yields the error value *)
  Theorem cycle_is_error b0 : (forall n, is_ref (chain b0 n) = true) -> exists r, resolve_reference tb b0 = ResCircular r.
  Proof.
    intro H. destruct (resolve_reference_cases b0) as [k C]. specialize (H k).
    destruct (resolve_reference tb b0); try (rewrite C in H; discriminate). now eexists.
  Qed.
  (* the error value is only produced by a genuine cycle: the same reference occurs at two different positions *)
  Theorem circular_is_cycle b0 r : resolve_reference tb b0 = ResCircular r ->
    exists i j, (i < j)%nat /\ chain b0 i = Some (RRef r) /\ chain b0 j = Some (RRef r).
  Proof.
    intro E. destruct (resolve_reference_cases b0) as [k C]. rewrite E in C.
    destruct C as (Ck & i & Hi & Hc). now exists i, k.
  Qed.
  (* an acyclic chain resolves to its terminal body, and only such a chain does *)
  Theorem resolved_is_terminal b0 id : resolve_reference tb b0 = ResBody id -> exists n, chain b0 n = Some (RBody id).
  Proof. intro E. destruct (resolve_reference_cases b0) as [k C]. rewrite E in C. now exists k. Qed.
  Theorem chain_resolves b0 id n : chain b0 n = Some (RBody id) -> resolve_reference tb b0 = ResBody id.
  Proof.
    intro Hn. destruct (resolve_reference_cases b0) as [k C].
    assert (Rn : is_ref (chain b0 n) = false) by now rewrite Hn.
    (* if the loop stopped outside the references, n and k both lie on the constant tail of the chain *)
    assert (Tail : is_ref (chain b0 k) = false -> chain b0 k = Some (RBody id)).
    { intro Rk. rewrite <- Hn, <- (chain_stays b0 k Rk (Nat.max n k)), <- (chain_stays b0 n Rn (Nat.max n k)) by lia. reflexivity. }
    destruct (resolve_reference tb b0) as [|id'|r|r].
    - rewrite C in Tail. discriminate (Tail eq_refl).
    - rewrite C in Tail. now injection (Tail eq_refl) as ->.
    - (* it stopped on a reference seen at step i < k: the chain has period k - i from i on, and never reaches a body *)
      exfalso. destruct C as (Ck & i & Hi & Hc).
      assert (P : chain b0 i = chain b0 ((k - i) + i)) by (replace (k - i + i)%nat with k by lia; congruence).
      pose proof (chain_periodic _ i (k - i) P n) as Q.
      assert (L : (n <= n * (k - i) + i)%nat) by (assert (1 <= k - i)%nat by lia; nia).
      rewrite (chain_stays b0 n Rn _ L) in Q. congruence.
    - rewrite C in Tail. discriminate (Tail eq_refl).
  Qed.
End Chain.
