(* CensusThm.v -- C07: nothing is dropped silently by the endpoint loop, the response loop, the body loop or the file writer. *)
From Coq Require Import NArith List Bool.
Import ListNotations.
Require Import OPC.Uni OPC.UniThm OPC.Names OPC.NamesFast OPC.Census.
Open Scope N_scope.

Theorem responses_accounted : forall rs code o, In (code, o) rs ->
  (exists st, In (code, st) (fst (add_responses rs))) \/ (exists w, In w (snd (add_responses rs)) /\ w_key w = code).
Proof.
  induction rs as [|[c0 o0] rs IH]; intros code o H; [contradiction|]. cbn [add_responses].
  destruct H as [H|H].
  - injection H as -> ->. destruct o; cbn [fst snd].
    + right. eexists. split; [now left|reflexivity].
    + right. eexists. split; [now left|reflexivity].
    + left. eexists. now left.
  - destruct (IH _ _ H) as [[st Hs]|[w [Hw1 Hw2]]].
    + left. exists st. destruct o0; cbn [fst snd]; auto using in_cons.
    + right. exists w. split; [|exact Hw2]. destruct o0; cbn [fst snd]; auto using in_cons.
Qed.

Theorem bodies_accounted : forall bs ct o, In (ct, o) bs ->
  In ct (fst (bodies_of bs)) \/ (exists w, In w (snd (bodies_of bs)) /\ w_key w = ct /\ w_what w = 4).
Proof.
  induction bs as [|[c0 o0] bs IH]; intros ct o H; [contradiction|]. cbn [bodies_of].
  destruct H as [H|H].
  - injection H as -> ->. destruct o; cbn [fst snd].
    1-4: right; eexists; split; [now left|split; reflexivity].
    left. now left.
  - destruct (IH _ _ H) as [Hs|[w [Hw1 Hw2]]].
    + left. destruct o0; cbn [fst snd]; auto using in_cons.
    + right. exists w. split; [|exact Hw2]. destruct o0; cbn [fst snd]; auto using in_cons.
Qed.

Lemma parse_operation_some o ep : parse_operation o = Some ep ->
  ep = mkEp (o_key o) (o_name o) (fst (add_responses (o_responses o))) (fst (bodies_of (o_bodies o)))
            (snd (add_responses (o_responses o)) ++ snd (bodies_of (o_bodies o))).
Proof.
  unfold parse_operation. destruct (negb (o_params_ok o)); [discriminate|].
  destruct (fst (bodies_of (o_bodies o))), (snd (bodies_of (o_bodies o))); intros [= <-]; reflexivity.
Qed.

(* every documented status and media type of a GENERATED operation is a Response / Body of the endpoint or a warning of it *)
Theorem endpoint_parts_accounted o ep : parse_operation o = Some ep ->
  (forall code r, In (code, r) (o_responses o) ->
     (exists st, In (code, st) (ep_responses ep)) \/ exists w, In w (ep_warnings ep) /\ w_key w = code) /\
  (forall ct b, In (ct, b) (o_bodies o) -> In ct (ep_bodies ep) \/ exists w, In w (ep_warnings ep) /\ w_key w = ct).
Proof.
  intro H. rewrite (parse_operation_some o ep H). cbn [ep_responses ep_bodies ep_warnings]. split.
  - intros code r Hin. destruct (responses_accounted _ _ _ Hin) as [Hs|[w [Hw1 Hw2]]]; [now left|].
    right. exists w. split; [apply in_or_app; now left|exact Hw2].
  - intros ct b Hin. destruct (bodies_accounted _ _ _ Hin) as [Hs|[w [Hw1 [Hw2 _]]]]; [now left|].
    right. exists w. split; [apply in_or_app; now right|exact Hw2].
Qed.

(* the loop only ever adds to a collection *)
Definition col_le (c c' : collection) : Prop :=
  c_tag c' = c_tag c /\ incl (c_endpoints c) (c_endpoints c') /\ incl (c_errors c) (c_errors c').
Lemma col_le_refl c : col_le c c. Proof. repeat split; apply incl_refl. Qed.
Lemma col_le_trans a b c : col_le a b -> col_le b c -> col_le a c.
Proof. intros (A1 & A2 & A3) (B1 & B2 & B3). repeat split; [congruence|eapply incl_tran; eauto|eapply incl_tran; eauto]. Qed.

Definition grows (f : collection -> collection) : Prop := forall c, col_le c (f c).

Lemma upd_hit cs t f : grows f -> exists c0, find_col (upd cs t f) t = Some (f c0).
Proof.
  intro Hf. induction cs as [|c cs IH]; cbn [upd].
  - exists (mkCol t [] []). cbn [find_col]. destruct (Hf (mkCol t [] [])) as (-> & _). cbn [c_tag]. now rewrite str_eqb_refl.
  - destruct (str_eqb (c_tag c) t) eqn:E; cbn [find_col].
    + exists c. destruct (Hf c) as (-> & _). now rewrite E.
    + now rewrite E.
Qed.

Definition cols_le (cs cs' : list collection) : Prop :=
  forall t c, find_col cs t = Some c -> exists c', find_col cs' t = Some c' /\ col_le c c'.
Lemma cols_le_refl cs : cols_le cs cs.
Proof. intros t c Hc. exists c. split; [exact Hc|apply col_le_refl]. Qed.
Lemma cols_le_trans a b c : cols_le a b -> cols_le b c -> cols_le a c.
Proof.
  intros Hab Hbc t x Hx. destruct (Hab _ _ Hx) as [y [Hy L1]]. destruct (Hbc _ _ Hy) as [z [Hz L2]].
  exists z. split; [exact Hz|eapply col_le_trans; eauto].
Qed.

Lemma upd_mono cs t f : grows f -> cols_le cs (upd cs t f).
Proof.
  intros Hf t' c Hc. induction cs as [|c0 cs IH]; cbn [upd find_col] in *; [discriminate|].
  destruct (str_eqb (c_tag c0) t); cbn [find_col].
  - destruct (Hf c0) as (-> & _). destruct (str_eqb (c_tag c0) t').
    + injection Hc as <-. exists (f c0). split; [reflexivity|apply Hf].
    + exists c. split; [exact Hc|apply col_le_refl].
  - destruct (str_eqb (c_tag c0) t').
    + exists c. split; [exact Hc|apply col_le_refl].
    + exact (IH Hc).
Qed.

Lemma fold_upd_mono (f : collection -> collection) : grows f -> forall ts cs, cols_le cs (fold_left (fun cs t => upd cs t f) ts cs).
Proof.
  intro Hf. induction ts as [|t ts IH]; intro cs; cbn [fold_left]; [apply cols_le_refl|].
  eapply cols_le_trans; [now apply upd_mono|apply IH].
Qed.

Lemma fold_upd_hit (f : collection -> collection) : grows f -> forall ts cs t, In t ts ->
  exists c0 c', find_col (fold_left (fun cs t => upd cs t f) ts cs) t = Some c' /\ col_le (f c0) c'.
Proof.
  intro Hf. induction ts as [|t0 ts IH]; intros cs t Hin; [contradiction|]. cbn [fold_left].
  destruct Hin as [->|Hin]; [|now apply IH].
  destruct (upd_hit cs t f Hf) as [c0 E1].
  destruct (fold_upd_mono f Hf ts _ _ _ E1) as [c' [H1 H2]]. now exists c0, c'.
Qed.

Definition f_err (o : operation) (c : collection) : collection :=
  mkCol (c_tag c) (c_endpoints c) (c_errors c ++ [(o_key o, mkW 1 (o_key o))]).
Definition f_ok (o : operation) (ep : endpoint) (c : collection) : collection :=
  mkCol (c_tag c) (c_endpoints c ++ [ep]) (c_errors c ++ map (fun w => (o_key o, w)) (ep_warnings ep)).
Lemma f_err_grows o : grows (f_err o).
Proof. intro c. repeat split; cbn; [apply incl_refl|apply incl_appl, incl_refl]. Qed.
Lemma f_ok_grows o ep : grows (f_ok o ep).
Proof. intro c. repeat split; cbn; apply incl_appl, incl_refl. Qed.

Lemma file_op_mono cs o : cols_le cs (file_op cs o).
Proof.
  unfold file_op. destruct (parse_operation o) as [ep|].
  - apply (fold_upd_mono (f_ok o ep)), f_ok_grows.
  - apply (fold_upd_mono (f_err o)), f_err_grows.
Qed.

(* the per-operation statement: filed under each of its tags as an endpoint, or as a warning carrying METHOD and path;
   and every warning of a generated endpoint is handed on under the same key *)
Definition filed (cs : list collection) (o : operation) : Prop :=
  forall t, In t (o_tags o) -> exists c, find_col cs t = Some c /\
    match parse_operation o with
    | Some ep => In ep (c_endpoints c) /\ forall w, In w (ep_warnings ep) -> In (o_key o, w) (c_errors c)
    | None => In (o_key o, mkW 1 (o_key o)) (c_errors c)
    end.

Lemma filed_mono cs cs' o : cols_le cs cs' -> filed cs o -> filed cs' o.
Proof.
  intros Hm Hf t Ht. destruct (Hf t Ht) as [c [Hc Hx]]. destruct (Hm _ _ Hc) as [c' [Hc' (L1 & L2 & L3)]].
  exists c'. split; [exact Hc'|]. destruct (parse_operation o) as [ep|].
  - destruct Hx as [A B]. split; [now apply L2|intros w Hw; now apply L3, B].
  - now apply L3.
Qed.

Lemma file_op_files cs o : filed (file_op cs o) o.
Proof.
  intros t Ht. unfold file_op. destruct (parse_operation o) as [ep|] eqn:E.
  - destruct (fold_upd_hit (f_ok o ep) (f_ok_grows o ep) (o_tags o) cs t Ht) as [c0 [c' (H1 & _ & L2 & L3)]].
    exists c'. split; [exact H1|]. split.
    + apply L2. cbn. apply in_or_app. right. now left.
    + intros w Hw. apply L3. cbn. apply in_or_app. right. apply in_map_iff. eauto.
  - destruct (fold_upd_hit (f_err o) (f_err_grows o) (o_tags o) cs t Ht) as [c0 [c' (H1 & _ & L2 & L3)]].
    exists c'. split; [exact H1|]. apply L3. cbn. apply in_or_app. right. now left.
Qed.

Lemma fold_file_op_filed ops : forall cs o, In o ops \/ filed cs o -> filed (fold_left file_op ops cs) o.
Proof.
  induction ops as [|o0 ops IH]; intros cs o H; cbn [fold_left].
  - destruct H as [[]|H]. exact H.
  - apply IH. destruct H as [[->|H]|H]; [right; apply file_op_files|now left|].
    right. eapply filed_mono; [apply file_op_mono|exact H].
Qed.

(* EndpointCollection.from_data loses no operation *)
Theorem ops_accounted : forall ops o, In o ops -> filed (collections ops) o.
Proof. intros ops o Ho. apply fold_file_op_filed. now left. Qed.

(* the tag selection of the code never yields an empty list (operation.tags or ["default"], then all of them or the first):
   so every operation is filed in at least one collection - none can vanish because it declares no tags *)
Lemma sel_tags_nonempty all_tags raw : sel_tags all_tags raw <> [].
Proof. unfold sel_tags. destruct raw as [|t r]; destruct all_tags; cbn; discriminate. Qed.

Theorem ops_filed_somewhere : forall ops o all_tags raw, In o ops -> o_tags o = sel_tags all_tags raw ->
  exists t c, In t (o_tags o) /\ find_col (collections ops) t = Some c /\
    match parse_operation o with
    | Some ep => In ep (c_endpoints c)
    | None => In (o_key o, mkW 1 (o_key o)) (c_errors c)
    end.
Proof.
  intros ops o all_tags raw Ho Et. pose proof (sel_tags_nonempty all_tags raw) as Hne. rewrite <- Et in Hne.
  destruct (o_tags o) as [|t ts] eqn:E; [contradiction|].
  destruct (ops_accounted ops o Ho t) as [c [Hc Hx]]; [rewrite E; now left|].
  exists t, c. split; [now left|]. split; [exact Hc|]. destruct (parse_operation o); tauto.
Qed.

Lemma write_all_keeps : forall ws files f k, In (f, k) files -> str_mem f (map fst ws) = false -> In (f, k) (write_all files ws).
Proof.
  induction ws as [|[f0 k0] ws IH]; intros files f k Hin Hm; cbn [write_all]; [exact Hin|].
  cbn [map fst str_mem] in Hm. apply orb_false_iff in Hm. destruct Hm as [H1 H2].
  apply IH; [|exact H2]. right. apply filter_In. split; [exact Hin|]. cbn [fst].
  destruct (str_eqb f f0) eqn:E; [discriminate|reflexivity].
Qed.

Lemma write_all_distinct : forall ws files f k, str_nodup (map fst ws) = true -> In (f, k) ws -> In (f, k) (write_all files ws).
Proof.
  induction ws as [|[f0 k0] ws IH]; intros files f k Hnd Hin; [contradiction|]. cbn [write_all].
  cbn [map fst str_nodup] in Hnd. apply andb_true_iff in Hnd. destruct Hnd as [H1 H2]. destruct Hin as [Hin|Hin].
  - inversion Hin; subst. apply write_all_keeps; [now left|]. now apply negb_true_iff in H1.
  - apply IH; assumption.
Qed.

(* when the module names of a tag are pairwise distinct, every endpoint's own file exists and
   holds that endpoint *)
Theorem no_silent_collapse prefix c : g_module_names_distinct prefix c = true ->
  forall ep, In ep (c_endpoints c) -> In (module_name prefix (ep_name ep), ep_key ep) (api_files prefix c).
Proof.
  unfold g_module_names_distinct, api_files. intros H ep Hin. apply write_all_distinct.
  - rewrite map_map. cbn [fst]. exact H.
  - apply in_map_iff. exists ep. split; [reflexivity|exact Hin].
Qed.

(* operationIds get-x and get_x give one module name: the second write replaces the first file, no error is recorded *)
Definition s_get_dash_x : str := [103;101;116;45;120].
Definition s_get_us_x : str := [103;101;116;95;120].
Definition s_field : str := [102;105;101;108;100;95].
(* the one evaluation of the name derivation, through the search trees of NamesFast; the rest of the witness is about five-letter strings *)
Lemma get_x_module_names : module_name s_field s_get_dash_x = s_get_us_x /\ module_name s_field s_get_us_x = s_get_us_x.
Proof. unfold module_name. rewrite <- !python_identifier_f_eq. split; vm_compute; reflexivity. Qed.

Theorem module_overwrite_refuted :
  exists prefix c e1 e2, In e1 (c_endpoints c) /\ In e2 (c_endpoints c) /\ ep_key e1 <> ep_key e2 /\
    g_module_names_distinct prefix c = false /\ length (api_files prefix c) = 1%nat /\
    ~ In (ep_key e1) (map snd (api_files prefix c)) /\ c_errors c = [].
Proof.
  exists s_field, (mkCol [100] [mkEp [49] s_get_dash_x [] [] []; mkEp [50] s_get_us_x [] [] []] []),
         (mkEp [49] s_get_dash_x [] [] []), (mkEp [50] s_get_us_x [] [] []).
  destruct get_x_module_names as [E1 E2].
  unfold g_module_names_distinct, api_files. cbn [c_endpoints c_errors map ep_name ep_key]. rewrite E1, E2.
  split; [now left|]. split; [right; now left|]. split; [discriminate|].
  split; [reflexivity|]. split; [reflexivity|]. split; [|reflexivity].
  intros [H|[]]. discriminate H.
Qed.

(* int(code) accepts leading zeros: "200" and "0200" are two documented responses with one status; the generated dispatch reaches the first only *)
Theorem status_alias_refuted :
  exists c1 c2, c1 <> c2 /\ parse_status c1 = ROk 200 /\ parse_status c2 = ROk 200 /\
    forall ep, ep_responses ep = [(c1, 200); (c2, 200)] -> g_status_distinct ep = false.
Proof.
  exists [50;48;48], [48;50;48;48]. split; [discriminate|]. split; [vm_compute; reflexivity|]. split; [vm_compute; reflexivity|].
  intros ep E. unfold g_status_distinct. rewrite E. reflexivity.
Qed.

Lemma n_nodup_NoDup l : n_nodup l = true -> NoDup l.
Proof.
  induction l as [|x l IH]; cbn [n_nodup]; intro H; [constructor|].
  apply andb_true_iff in H as [H1 H2]. apply negb_true_iff in H1. constructor; [|now apply IH].
  intro Hin. enough (existsb (N.eqb x) l = true) by congruence. apply existsb_exists. exists x. split; [exact Hin|apply N.eqb_refl].
Qed.
Theorem status_distinct_no_alias ep : g_status_distinct ep = true -> NoDup (map snd (ep_responses ep)).
Proof. apply n_nodup_NoDup. Qed.
