(* EndpointThm.v — proofs about Endpoint.v (C03, C04, C10, C11). *)
From Coq Require Import NArith ZArith List Bool Lia.
Import ListNotations.
Require Import OPC.gen.GenKinds OPC.Uni OPC.Names OPC.NamesThm OPC.Codec OPC.MapsThm OPC.CodecThm OPC.Types OPC.TypesThm OPC.Endpoint.
Open Scope N_scope.

Definition wire_names (ps : list param) : list str := map pa_name ps.
Definition distinct (l : list str) : Prop := NoDup l.
Definition no_dict_params (ps : list param) : bool := forallb (fun p => negb (kf_json_is_dict (kfacts_of (pa_kind p)))) ps.

Lemma m_get_filter {A} (P : str * A -> bool) (k : str) (m : smap A) : m_sorted m = true ->
  m_get k (filter P m) = match m_get k m with Some v => if P (k, v) then Some v else None | None => None end.
Proof.
  induction m as [|[k0 v0] m IH]; [reflexivity|]. intro Hs.
  apply m_sorted_cons in Hs as [Hh Hs]. specialize (IH Hs).
  cbn [filter]. destruct (P (k0, v0)) eqn:EP; cbn [m_get].
  - destruct (str_cmp k k0) eqn:E; [|reflexivity|exact IH].
    apply str_cmp_eq in E. subst k0. now rewrite EP.
  - rewrite IH. destruct (str_cmp k k0) eqn:E; [| |reflexivity].
    + apply str_cmp_eq in E. subst k0. rewrite EP.
      rewrite (hd_lt_get_none k k m); auto. rewrite str_cmp_refl. discriminate.
    + rewrite (hd_lt_get_none k0 k m); auto. congruence.
Qed.

(* the common shape of the three wiring loops: every parameter fails, is skipped, or is put under its wire name *)
Section Collect.
  Variable step : param -> option (option pv).
  Fixpoint collect (ps : list param) (d : dict) : option dict :=
    match ps with
    | [] => Some d
    | p :: r => match step p with
                | None => None
                | Some None => collect r d
                | Some (Some v) => collect r (m_put (pa_name p) v d)
                end
    end.

  Lemma collect_sorted ps : forall d0 d, m_sorted d0 = true -> collect ps d0 = Some d -> m_sorted d = true.
  Proof.
    induction ps as [|p r IH]; intros d0 d Hs H; cbn [collect] in H.
    - injection H as <-. exact Hs.
    - destruct (step p) as [[v|]|]; [|eauto|discriminate]. eapply IH; [|exact H]. now apply m_sorted_put.
  Qed.

  Lemma collect_other ps : forall d0 d key, ~ In key (wire_names ps) -> collect ps d0 = Some d -> m_get key d = m_get key d0.
  Proof.
    induction ps as [|p r IH]; intros d0 d key Hn H; cbn [collect] in H.
    - now injection H as <-.
    - cbn in Hn. destruct (step p) as [[v|]|]; [| |discriminate].
      + rewrite (IH _ _ key) with (2 := H) by tauto. apply m_get_put_other. intro; subst; tauto.
      + apply IH; tauto.
  Qed.

  Lemma collect_at ps : forall d0 d p o, In p ps -> NoDup (wire_names ps) -> step p = Some o -> collect ps d0 = Some d ->
    m_get (pa_name p) d = match o with Some v => Some v | None => m_get (pa_name p) d0 end.
  Proof.
    induction ps as [|q r IH]; intros d0 d p o Hin Hnd Hst H; [destruct Hin|].
    cbn [collect] in H. cbn in Hnd. apply NoDup_cons_iff in Hnd as [Hq Hnd].
    destruct Hin as [->|Hin].
    - rewrite Hst in H. destruct o as [v|].
      + rewrite (collect_other _ _ _ _ Hq H). apply m_get_put_same.
      + apply (collect_other _ _ _ _ Hq H).
    - assert (Hne: pa_name q <> pa_name p).
      { intro E. apply Hq. rewrite E. now apply in_map. }
      destruct (step q) as [[v|]|]; [| |discriminate].
      + rewrite (IH _ _ _ _ Hin Hnd Hst H). destruct o; auto. now apply m_get_put_other.
      + apply (IH _ _ _ _ Hin Hnd Hst H).
  Qed.

  Lemma collect_get ps d p o : In p ps -> NoDup (wire_names ps) -> step p = Some o -> collect ps [] = Some d ->
    m_get (pa_name p) d = o.
  Proof. intros Hin Hnd Hst H. rewrite (collect_at _ _ _ _ _ Hin Hnd Hst H). now destruct o. Qed.

  Lemma collect_keys ps d key x : collect ps [] = Some d -> m_get key d = Some x -> In key (wire_names ps).
  Proof.
    intros H Hg. destruct (mem_str key (wire_names ps)) eqn:E; [now apply mem_str_In|].
    apply mem_str_false in E. rewrite (collect_other _ _ _ _ E H) in Hg. discriminate.
  Qed.
End Collect.

Definition guarded (enc : param -> pv -> option pv) (a : args) (p : param) : option (option pv) :=
  match arg a (pa_py p) with
  | None => None
  | Some v => if negb (pa_req p) && is_unset v then Some None else option_map Some (enc p v)
  end.

Lemma guarded_unset enc a p : pa_req p = false -> arg a (pa_py p) = Some PUnset -> guarded enc a p = Some None.
Proof. intros Hreq Harg. unfold guarded. now rewrite Harg, Hreq. Qed.

Lemma guarded_set enc a p v x : arg a (pa_py p) = Some v -> pa_req p = true \/ v <> PUnset -> enc p v = Some x ->
  guarded enc a p = Some (Some x).
Proof.
  intros Harg Hc Hx. unfold guarded. rewrite Harg, Hx.
  destruct Hc as [Hc|Hc]; [now rewrite Hc|]. destruct v; try congruence; now rewrite andb_false_r.
Qed.

Lemma headers_collect a ps : forall d, headers_of ps a d = collect (guarded (fun p => header_value (pa_kind p)) a) ps d.
Proof.
  induction ps as [|p r IH]; intro d; [reflexivity|]. cbn [headers_of collect]. unfold guarded.
  destruct (arg a (pa_py p)) as [v|]; [|reflexivity].
  destruct (negb (pa_req p) && is_unset v); [apply IH|].
  destruct (header_value (pa_kind p) v); [apply IH|reflexivity].
Qed.

Lemma cookies_collect a ps : forall d, cookies_of ps a d = collect (guarded (fun _ v => Some v) a) ps d.
Proof.
  induction ps as [|p r IH]; intro d; [reflexivity|]. cbn [cookies_of collect]. unfold guarded.
  destruct (arg a (pa_py p)) as [v|]; [|reflexivity].
  destruct (negb (pa_req p) && is_unset v); apply IH.
Qed.

Definition qdest (T : ctable) (f : nat) (p : param) (v : pv) : option pv :=
  if has_transform (pa_kind p) then
    match enc_field (enc T f) (pa_kind p) (pa_req p) v with
    | Some (Some j) => Some (PJ j) | Some None => Some PUnset | None => None end
  else Some v.
Definition qstep (T : ctable) (f : nat) (a : args) (p : param) : option (option pv) :=
  match arg a (pa_py p) with
  | None => None
  | Some v => option_map Some (qdest T f p v)
  end.
Lemma query_collect T f a ps : no_dict_params ps = true -> forall d, query_of T f ps a d = collect (qstep T f a) ps d.
Proof.
  induction ps as [|p r IH]; intros Hnd d; [reflexivity|].
  cbn [no_dict_params forallb] in Hnd. apply andb_true_iff in Hnd as [Hp Hnd]. apply negb_true_iff in Hp.
  cbn [query_of collect]. unfold qstep, qdest.
  destruct (arg a (pa_py p)) as [v|]; [|reflexivity]. rewrite Hp.
  destruct (has_transform (pa_kind p)).
  - destruct (enc_field (enc T f) (pa_kind p) (pa_req p) v) as [[j|]|]; cbn [option_map]; auto.
  - cbn [option_map]. auto.
Qed.

Definition kept (v : pv) : option pv := match v with PUnset | PJ JNull => None | _ => Some v end.
Lemma kept_some x : x <> PUnset -> x <> PJ JNull -> kept x = Some x.
Proof. intros H1 H2. destruct x as [|[]| | | | | |]; congruence || reflexivity. Qed.

Lemma drop_get key d : m_sorted d = true ->
  m_get key (drop_unset_none d) = match m_get key d with Some v => kept v | None => None end.
Proof.
  intro Hs. unfold drop_unset_none. rewrite m_get_filter by exact Hs.
  destruct (m_get key d) as [v|]; [|reflexivity]. cbn [snd].
  destruct v as [|j| | | | | |]; try reflexivity. destruct j; reflexivity.
Qed.

Lemma query_sorted T f ps a d : no_dict_params ps = true -> query_of T f ps a [] = Some d -> m_sorted d = true.
Proof. intros Hdict H. rewrite query_collect in H by exact Hdict. now apply (collect_sorted _ _ [] d eq_refl H). Qed.

Lemma query_get T f ps a d p v x : In p ps -> NoDup (wire_names ps) -> no_dict_params ps = true ->
  arg a (pa_py p) = Some v -> qdest T f p v = Some x -> query_of T f ps a [] = Some d ->
  m_get (pa_name p) (drop_unset_none d) = kept x.
Proof.
  intros Hin Hnd Hdict Harg Hx H. rewrite drop_get by exact (query_sorted _ _ _ _ _ Hdict H).
  rewrite query_collect in H by exact Hdict.
  assert (Hst: qstep T f a p = Some (Some x)) by (unfold qstep; now rewrite Harg, Hx).
  now rewrite (collect_get _ _ _ _ _ Hin Hnd Hst H).
Qed.

(* C03 / C10: query, header and cookie arguments *)
Theorem query_unset_absent : forall T f ps a d p,
  In p ps -> NoDup (wire_names ps) -> no_dict_params ps = true ->
  pa_req p = false -> arg a (pa_py p) = Some PUnset ->
  query_of T f ps a [] = Some d -> m_get (pa_name p) (drop_unset_none d) = None.
Proof.
  intros T f ps a d p Hin Hnd Hdict Hreq Harg H.
  apply (query_get T f ps a d p PUnset PUnset); auto.
  unfold qdest. rewrite Hreq, unset_not_encoded. now destruct (has_transform (pa_kind p)).
Qed.

Theorem query_placement : forall T f ps a d p v x,
  In p ps -> NoDup (wire_names ps) -> no_dict_params ps = true ->
  arg a (pa_py p) = Some v ->
  (if has_transform (pa_kind p)
   then exists j, enc_field (enc T f) (pa_kind p) (pa_req p) v = Some (Some j) /\ x = PJ j
   else x = v) ->
  x <> PUnset -> x <> PJ JNull ->
  query_of T f ps a [] = Some d -> m_get (pa_name p) (drop_unset_none d) = Some x.
Proof.
  intros T f ps a d p v x Hin Hnd Hdict Harg Hx Hx1 Hx2 H.
  assert (Hd: qdest T f p v = Some x).
  { unfold qdest. destruct (has_transform (pa_kind p)); [|now subst]. destruct Hx as [j [-> ->]]. reflexivity. }
  rewrite (query_get _ _ _ _ _ _ _ _ Hin Hnd Hdict Harg Hd H). now apply kept_some.
Qed.

Theorem query_nothing_else : forall T f ps a d key x,
  no_dict_params ps = true -> query_of T f ps a [] = Some d -> m_get key (drop_unset_none d) = Some x -> In key (wire_names ps).
Proof.
  intros T f ps a d key x Hdict H Hg.
  rewrite drop_get in Hg by exact (query_sorted _ _ _ _ _ Hdict H).
  rewrite query_collect in H by exact Hdict.
  destruct (m_get key d) as [v|] eqn:E; [|discriminate]. exact (collect_keys _ _ _ _ _ H E).
Qed.

Theorem header_unset_absent : forall ps a d p,
  In p ps -> NoDup (wire_names ps) -> pa_req p = false -> arg a (pa_py p) = Some PUnset ->
  headers_of ps a [] = Some d -> m_get (pa_name p) d = None.
Proof.
  intros ps a d p Hin Hnd Hreq Harg H. rewrite headers_collect in H.
  exact (collect_get _ _ _ _ _ Hin Hnd (guarded_unset _ _ _ Hreq Harg) H).
Qed.

Theorem header_placement : forall ps a d p v hv,
  In p ps -> NoDup (wire_names ps) -> arg a (pa_py p) = Some v -> (pa_req p = true \/ v <> PUnset) ->
  header_value (pa_kind p) v = Some hv ->
  headers_of ps a [] = Some d -> m_get (pa_name p) d = Some hv.
Proof.
  intros ps a d p v hv Hin Hnd Harg Hc Hhv H. rewrite headers_collect in H.
  exact (collect_get _ _ _ _ _ Hin Hnd (guarded_set _ _ _ _ _ Harg Hc Hhv) H).
Qed.

Theorem header_nothing_else : forall ps a d key x,
  headers_of ps a [] = Some d -> m_get key d = Some x -> In key (wire_names ps).
Proof. intros ps a d key x H Hg. rewrite headers_collect in H. exact (collect_keys _ _ _ _ _ H Hg). Qed.

Theorem cookie_unset_absent : forall ps a d p,
  In p ps -> NoDup (wire_names ps) -> pa_req p = false -> arg a (pa_py p) = Some PUnset ->
  cookies_of ps a [] = Some d -> m_get (pa_name p) d = None.
Proof.
  intros ps a d p Hin Hnd Hreq Harg H. rewrite cookies_collect in H.
  exact (collect_get _ _ _ _ _ Hin Hnd (guarded_unset _ _ _ Hreq Harg) H).
Qed.

Theorem cookie_placement : forall ps a d p v,
  In p ps -> NoDup (wire_names ps) -> arg a (pa_py p) = Some v -> (pa_req p = true \/ v <> PUnset) ->
  cookies_of ps a [] = Some d -> m_get (pa_name p) d = Some v.
Proof.
  intros ps a d p v Hin Hnd Harg Hc H. rewrite cookies_collect in H.
  exact (collect_get _ _ _ _ _ Hin Hnd (guarded_set _ _ _ _ _ Harg Hc eq_refl) H).
Qed.

Theorem cookie_nothing_else : forall ps a d key x,
  cookies_of ps a [] = Some d -> m_get key d = Some x -> In key (wire_names ps).
Proof. intros ps a d key x H Hg. rewrite cookies_collect in H. exact (collect_keys _ _ _ _ _ H Hg). Qed.

(* get_kwargs as the record before the body is looked at, then the body dispatch *)
Definition kw_base (ep : endpoint) (hs cs qs : dict) (url : str) : kwargs :=
  {| kw_method := ep_method ep; kw_url := match ep_pathp ep with [] => ep_path ep | _ => url end;
     kw_params := match ep_query ep with [] => None | _ => Some (drop_unset_none qs) end;
     kw_cookies := match ep_cookie ep with [] => None | _ => Some cs end;
     kw_headers := if negb (match ep_header ep with [] => true | _ => false end) || negb (match ep_bodies ep with [] => true | _ => false end)
                   then Some hs else None;
     kw_json := None; kw_data := None; kw_other_body := false |}.

Definition set_body (k : kwargs) (hs : option dict) (j d : option pv) (o : bool) : kwargs :=
  {| kw_method := kw_method k; kw_url := kw_url k; kw_params := kw_params k; kw_cookies := kw_cookies k;
     kw_headers := hs; kw_json := j; kw_data := d; kw_other_body := o |}.

Section Bodies.
  Variables (T : ctable) (f : nat).

  (* the multi-body chain of get_kwargs *)
  Section Chain.
  Variable bv : pv.
  Fixpoint multi_go (bs : list body) (k : kwargs) : option kwargs :=
    match bs with
    | [] => Some k
    | b :: r =>
        if body_matches (b_kind b) bv then
          let hs' := Some (m_put s_content_type (PJ (JStr (b_ctype b))) (match kw_headers k with Some h => h | None => [] end)) in
          match b_type b with
          | BJson => match body_value T f b bv with
                     | Some x => multi_go r (set_body k hs' (Some x) (kw_data k) (kw_other_body k))
                     | None => None end
          | BData => match body_value T f b bv with
                     | Some x => multi_go r (set_body k hs' (kw_json k) (Some x) (kw_other_body k))
                     | None => None end
          | _ => multi_go r (set_body k hs' (kw_json k) (kw_data k) true)
          end
        else multi_go r k
    end.

  Lemma multi_go_method bs : forall k0 k, multi_go bs k0 = Some k -> kw_method k = kw_method k0.
  Proof.
    induction bs as [|b r IH]; intros k0 k H; cbn [multi_go] in H.
    - now injection H as <-.
    - destruct (body_matches (b_kind b) bv); [|exact (IH _ _ H)].
      destruct (b_type b); try (destruct (body_value T f b bv); [|discriminate]); exact (IH _ _ H).
  Qed.
  End Chain.

  Definition add_body (body_arg : option pv) (bs : list body) (hs : dict) (base : kwargs) : option kwargs :=
    match bs with
    | [] => Some base
    | [b] =>
        match body_arg with
        | None => None
        | Some bv =>
            let hs' := match b_type b with BFiles => hs | _ => m_put s_content_type (PJ (JStr (b_ctype b))) hs end in
            match b_type b with
            | BJson => match body_value T f b bv with Some x => Some (set_body base (Some hs') (Some x) None false) | None => None end
            | BData => match body_value T f b bv with Some x => Some (set_body base (Some hs') None (Some x) false) | None => None end
            | _ => Some (set_body base (Some hs') None None true)
            end
        end
    | b :: b2 :: r => match body_arg with None => None | Some bv => multi_go bv (b :: b2 :: r) base end
    end.

  Lemma get_kwargs_eq ep a : get_kwargs T f ep a =
    match headers_of (ep_header ep) a [], cookies_of (ep_cookie ep) a [], query_of T f (ep_query ep) a [], format_path (ep_path ep) a with
    | Some hs, Some cs, Some qs, Some url => add_body (arg a [98;111;100;121]) (ep_bodies ep) hs (kw_base ep hs cs qs url)
    | _, _, _, _ => None
    end.
  Proof. reflexivity. Qed.

  Lemma get_kwargs_some ep a k : get_kwargs T f ep a = Some k ->
    exists hs cs qs url, add_body (arg a [98;111;100;121]) (ep_bodies ep) hs (kw_base ep hs cs qs url) = Some k.
  Proof.
    rewrite get_kwargs_eq. intro H.
    destruct (headers_of (ep_header ep) a []) as [hs|]; [|discriminate].
    destruct (cookies_of (ep_cookie ep) a []) as [cs|]; [|discriminate].
    destruct (query_of T f (ep_query ep) a []) as [qs|]; [|discriminate].
    destruct (format_path (ep_path ep) a) as [url|]; [|discriminate]. eauto.
  Qed.

  Lemma add_body_method body_arg bs hs k0 k : add_body body_arg bs hs k0 = Some k -> kw_method k = kw_method k0.
  Proof.
    intro H. destruct bs as [|b [|b2 bs]]; cbn [add_body] in H.
    - now injection H as <-.
    - destruct body_arg as [bv|]; [|discriminate].
      destruct (b_type b); try (destruct (body_value T f b bv); [|discriminate]); now injection H as <-.
    - destruct body_arg as [bv|]; [|discriminate]. exact (multi_go_method _ _ _ _ H).
  Qed.
End Bodies.

(* for RenameThm.kwargs_rename_invariant *)
Lemma nil_case {A B C} (l' : list A) (l : list B) (x y : C) : length l' = length l ->
  match l' with [] => x | _ => y end = match l with [] => x | _ => y end.
Proof. destruct l', l; try discriminate; reflexivity. Qed.

Lemma kw_base_ext ep ep' hs cs qs url :
  ep_method ep' = ep_method ep ->
  match ep_pathp ep' with [] => ep_path ep' | _ => url end = match ep_pathp ep with [] => ep_path ep | _ => url end ->
  length (ep_query ep') = length (ep_query ep) -> length (ep_cookie ep') = length (ep_cookie ep) ->
  length (ep_header ep') = length (ep_header ep) -> ep_bodies ep' = ep_bodies ep ->
  kw_base ep' hs cs qs url = kw_base ep hs cs qs url.
Proof.
  intros Hm Hu Hq Hc Hh Hb. unfold kw_base.
  now rewrite Hm, Hu, Hb, (nil_case _ _ _ _ Hq), (nil_case _ _ _ _ Hc), (nil_case _ _ _ _ Hh).
Qed.

Theorem method_literal : forall T f ep a k, get_kwargs T f ep a = Some k -> kw_method k = ep_method ep.
Proof.
  intros T f ep a k H. destruct (get_kwargs_some _ _ _ _ _ H) as (hs & cs & qs & url & H').
  exact (add_body_method _ _ _ _ _ _ _ H').
Qed.

Theorem content_type_matches : forall T f ep a k b,
  ep_bodies ep = [b] -> (b_type b = BJson \/ b_type b = BData) -> get_kwargs T f ep a = Some k ->
  exists hs, kw_headers k = Some hs /\ m_get s_content_type hs = Some (PJ (JStr (b_ctype b))).
Proof.
  intros T f ep a k b Hb Ht H. destruct (get_kwargs_some _ _ _ _ _ H) as (hs & cs & qs & url & H').
  rewrite Hb in H'. cbn [add_body] in H'. destruct (arg a [98; 111; 100; 121]) as [bv|]; [|discriminate].
  exists (m_put s_content_type (PJ (JStr (b_ctype b))) hs). split; [|apply m_get_put_same].
  destruct Ht as [Ht|Ht]; rewrite Ht in H'; (destruct (body_value T f b bv); [|discriminate]); now injection H' as <-.
Qed.

Theorem security_demands_auth : forall ep, client_param ep = CAuthenticated <-> ep_security ep = true.
Proof. intro ep. unfold client_param. destruct (ep_security ep); split; congruence. Qed.

(* two bodies of one class: both isinstance blocks fire, json= and data= are both set *)
Theorem multi_body_same_type_refuted : exists T f ep a k,
  get_kwargs T f ep a = Some k /\ kw_json k <> None /\ kw_data k <> None.
Proof.
  exists [ {| c_props := []; c_addl := None |} ], 2%nat,
    {| ep_method := [112]; ep_path := []; ep_pathp := []; ep_query := []; ep_header := []; ep_cookie := [];
       ep_bodies := [ {| b_ctype := [97]; b_type := BJson; b_kind := KModel 0 |}; {| b_ctype := [98]; b_type := BData; b_kind := KModel 0 |} ];
       ep_security := false; ep_responses := [] |},
    [([98;111;100;121], PObj 0 [] [])].
  eexists. split; [vm_compute; reflexivity|]. split; discriminate.
Qed.

(* C03: path placeholders; sort_parameters rewrites {wire name} to {python name}, _get_kwargs formats *)
Inductive seg := Lit (s : str) | Slot (wire : str).
Definition render_seg (x : seg) : str := match x with Lit s => s | Slot n => braces n end.
Definition render_tpl (segs : list seg) : str := flat_map render_seg segs.
Definition no_brace (s : str) : bool := forallb (fun c => negb ((c =? 123) || (c =? 125))) s.
Definition plain_name (s : str) : bool :=
  match s with c :: _ => ident_start c | [] => false end &&
  forallb (fun c => negb ((c =? 123) || (c =? 125) || (c =? 33) || (c =? 58) || (c =? 46) || (c =? 91))) s.
Definition slots (segs : list seg) : list str := flat_map (fun x => match x with Slot n => [n] | Lit _ => [] end) segs.
(* slot names too: brace-free and non-empty *)
Definition lits_ok (segs : list seg) : bool := forallb (fun x => match x with Lit s => no_brace s | Slot n => no_brace n && negb (match n with [] => true | _ => false end) end) segs.
(* the guard: no python name equals ANOTHER parameter's wire name *)
Definition no_capture (ps : list param) : Prop :=
  forall p q, In p ps -> In q ps -> pa_py p = pa_name q -> p = q.
Fixpoint subst_segs (segs : list seg) (ps : list param) (a : args) : option str :=
  match segs with
  | [] => Some []
  | Lit s :: r => option_map (app s) (subst_segs r ps a)
  | Slot n :: r =>
      match find (fun p => str_eqb (pa_name p) n) ps with
      | Some p => match arg a (pa_py p) with
                  | Some v => match str_of v, subst_segs r ps a with Some t, Some out => Some (t ++ out) | _, _ => None end
                  | None => None end
      | None => None
      end
  end.

Definition map_seg (g : str -> str) (segs : list seg) : list seg :=
  map (fun x => match x with Lit s => Lit s | Slot n => Slot (g n) end) segs.

Lemma render_cons x segs : render_tpl (x :: segs) = render_seg x ++ render_tpl segs.
Proof. reflexivity. Qed.
Lemma map_seg_cons g x segs :
  map_seg g (x :: segs) = match x with Lit s => Lit s | Slot n => Slot (g n) end :: map_seg g segs.
Proof. reflexivity. Qed.
Lemma slots_cons x segs : slots (x :: segs) = match x with Slot n => [n] | Lit _ => [] end ++ slots segs.
Proof. reflexivity. Qed.

Lemma slots_map g segs : slots (map_seg g segs) = map g (slots segs).
Proof.
  induction segs as [|x segs IH]; [reflexivity|].
  rewrite map_seg_cons, !slots_cons, map_app, IH. now destruct x.
Qed.

Lemma no_brace_cons c s : no_brace (c :: s) = true <-> c <> 123 /\ c <> 125 /\ no_brace s = true.
Proof.
  unfold no_brace. cbn [forallb]. rewrite andb_true_iff, negb_true_iff, orb_false_iff, !N.eqb_neq. tauto.
Qed.

Lemma no_brace_no_open s : no_brace s = true -> forall c, In c s -> c <> 123.
Proof.
  unfold no_brace. rewrite forallb_forall. intros H c Hc. specialize (H c Hc).
  rewrite negb_true_iff, orb_false_iff, N.eqb_neq in H. tauto.
Qed.

Lemma plain_no_brace s : plain_name s = true -> no_brace s = true.
Proof.
  unfold plain_name, no_brace. intro H. apply andb_true_iff in H as [_ H].
  rewrite forallb_forall in *. intros c Hc. specialize (H c Hc).
  rewrite negb_true_iff in *. rewrite !orb_false_iff in H. rewrite orb_false_iff. tauto.
Qed.

Lemma plain_slot_ok n : plain_name n = true -> no_brace n && negb (match n with [] => true | _ => false end) = true.
Proof. intro Hp. rewrite (plain_no_brace _ Hp). unfold plain_name in Hp. now destruct n. Qed.

Lemma lits_ok_map g segs : (forall n, In n (slots segs) -> plain_name (g n) = true) -> lits_ok segs = true -> lits_ok (map_seg g segs) = true.
Proof.
  induction segs as [|x segs IH]; intros Hg Hok; [reflexivity|].
  rewrite map_seg_cons. cbn [lits_ok forallb] in *. apply andb_true_iff in Hok as [Hx Hok]. apply andb_true_iff. split.
  - destruct x as [s|n]; [exact Hx|]. apply plain_slot_ok, Hg. now left.
  - apply IH; [|exact Hok]. intros n Hn. apply Hg. rewrite slots_cons. apply in_or_app. now right.
Qed.

Lemma lits_ok_slots segs : lits_ok segs = true -> forall n, In n (slots segs) -> no_brace n = true.
Proof.
  unfold lits_ok, slots. rewrite forallb_forall. intros H n Hn.
  apply in_flat_map in Hn as [x [Hx Hn]]. specialize (H x Hx). destruct x as [s|m]; [destruct Hn|].
  destruct Hn as [<-|[]]. now apply andb_true_iff in H as [H _].
Qed.

Lemma prefix_name w : forall n R, no_brace w = true -> no_brace n = true ->
  prefix_of (w ++ [125]) (n ++ 125 :: R) = if str_eqb w n then Some R else None.
Proof.
  induction w as [|x w IH]; intros n R Hw Hn.
  - destruct n as [|y n]; cbn [app prefix_of str_eqb]; [now rewrite N.eqb_refl|].
    apply no_brace_cons in Hn as [_ [Hy _]]. destruct (N.eqb_spec 125 y); [congruence|reflexivity].
  - apply no_brace_cons in Hw as [_ [Hx Hw]]. destruct n as [|y n].
    + cbn [app prefix_of str_eqb]. destruct (N.eqb_spec x 125); [congruence|reflexivity].
    + apply no_brace_cons in Hn as [_ [_ Hn]]. cbn [app prefix_of str_eqb].
      destruct (N.eqb_spec x y); cbn [andb]; [|reflexivity]. now apply IH.
Qed.

Lemma replace_skip o new u : (forall c, In c u -> c <> 123) ->
  forall R fuel, (length (u ++ R) < fuel)%nat ->
  replace_fuel fuel (123 :: o) new (u ++ R) = u ++ replace_fuel (fuel - length u) (123 :: o) new R.
Proof.
  induction u as [|c u IH]; intros Hu R fuel Hf.
  - cbn [app length]. now rewrite Nat.sub_0_r.
  - destruct fuel as [|fuel]; [cbn in Hf; lia|].
    cbn [app replace_fuel prefix_of length Nat.sub].
    assert (Hc: c <> 123) by (apply Hu; now left).
    destruct (N.eqb_spec 123 c); [congruence|].
    f_equal. apply IH; [intros; apply Hu; now right|]. cbn in Hf. lia.
Qed.

Lemma replace_slot w new n R fuel : no_brace w = true -> no_brace n = true -> (length (braces n ++ R) < S fuel)%nat ->
  replace_fuel (S fuel) (braces w) new (braces n ++ R) =
  if str_eqb w n then new ++ replace_fuel fuel (braces w) new R
  else braces n ++ replace_fuel (fuel - length (n ++ [125])) (braces w) new R.
Proof.
  intros Hw Hn Hf. unfold braces in *. cbn [app replace_fuel prefix_of]. rewrite N.eqb_refl.
  rewrite <- app_assoc. cbn [app]. rewrite prefix_name by assumption.
  destruct (str_eqb w n); [reflexivity|]. f_equal.
  change (n ++ 125 :: R) with (n ++ [125] ++ R). rewrite app_assoc. rewrite replace_skip.
  - rewrite <- app_assoc. reflexivity.
  - intros c Hc. apply in_app_or in Hc as [Hc|[<-|[]]]; [now apply (no_brace_no_open n)|discriminate].
  - cbn [app length] in Hf. rewrite <- app_assoc in Hf. cbn [app] in Hf.
    rewrite <- app_assoc. cbn [app]. lia.
Qed.

(* str.replace of {w} by {n'}: one pass renames exactly the slots called w *)
Definition ren (w n' x : str) : str := if str_eqb x w then n' else x.

Lemma replace_render w n' : no_brace w = true ->
  forall segs, lits_ok segs = true ->
  forall fuel, (length (render_tpl segs) < fuel)%nat ->
  replace_fuel fuel (braces w) (braces n') (render_tpl segs) = render_tpl (map_seg (ren w n') segs).
Proof.
  intros Hw. induction segs as [|x segs IH]; intros Hnb fuel Hf.
  - destruct fuel; reflexivity.
  - cbn [lits_ok forallb] in Hnb. apply andb_true_iff in Hnb as [Hx Hnb].
    rewrite map_seg_cons, !render_cons in *.
    destruct x as [s|n]; cbn [render_seg] in *.
    + rewrite app_length in Hf.
      unfold braces at 1. rewrite replace_skip; [|now apply no_brace_no_open|rewrite app_length; lia].
      f_equal. apply IH; [exact Hnb|lia].
    + destruct fuel as [|fuel]; [lia|]. apply andb_true_iff in Hx as [Hx _].
      rewrite replace_slot by assumption. unfold ren. rewrite (str_eqb_sym n w).
      rewrite app_length in Hf. unfold braces in Hf. cbn [length] in Hf.
      destruct (str_eqb w n); f_equal; (apply IH; [exact Hnb|lia]).
Qed.

Lemma replace_all_render w n' segs : no_brace w = true -> lits_ok segs = true ->
  replace_all (braces w) (braces n') (render_tpl segs) = render_tpl (map_seg (ren w n') segs).
Proof.
  (* show replace_all that old is not empty *)
  intros Hw Hs. unfold replace_all. unfold braces at 1. fold (braces w). apply replace_render; auto.
Qed.

(* the sequential rewrite acts on every slot name by the composed renaming *)
Definition ren_all (ps : list param) (x : str) : str := fold_left (fun x p => ren (pa_name p) (pa_py p) x) ps x.

Lemma lits_ok_ren w n' segs : plain_name n' = true -> lits_ok segs = true -> lits_ok (map_seg (ren w n') segs) = true.
Proof.
  intro Hp. unfold lits_ok, map_seg. rewrite !forallb_forall. intros H x Hx.
  apply in_map_iff in Hx as [y [<- Hy]]. specialize (H y Hy). destruct y as [s|n]; [exact H|].
  unfold ren. destruct (str_eqb n w); [now apply plain_slot_ok | exact H].
Qed.

Lemma rewrite_render ps : forall segs, lits_ok segs = true ->
  (forall p, In p ps -> no_brace (pa_name p) = true /\ plain_name (pa_py p) = true) ->
  rewrite_path (render_tpl segs) ps = render_tpl (map_seg (ren_all ps) segs).
Proof.
  unfold rewrite_path. induction ps as [|p ps IH]; intros segs Hnb Hps; cbn [fold_left].
  - f_equal. unfold map_seg. rewrite <- (map_id segs) at 1. apply map_ext. now intros [s|n].
  - destruct (Hps p (or_introl eq_refl)) as [Hw Hn].
    rewrite replace_all_render by assumption. rewrite IH.
    + f_equal. unfold map_seg. rewrite map_map. apply map_ext. now intros [s|n].
    + now apply lits_ok_ren.
    + intros q Hq. apply Hps. now right.
Qed.

Lemma ren_all_fixed ps : forall x, (forall q, In q ps -> x <> pa_name q) -> ren_all ps x = x.
Proof.
  unfold ren_all. induction ps as [|q ps IH]; intros x H; [reflexivity|]. cbn [fold_left].
  unfold ren at 2. rewrite str_eqb_neq by (apply H; now left). apply IH. intros; apply H; now right.
Qed.

Lemma ren_all_wire ps : forall p, In p ps -> NoDup (wire_names ps) -> no_capture ps -> ren_all ps (pa_name p) = pa_py p.
Proof.
  induction ps as [|q ps IH]; intros p Hin Hnd Hcap; [destruct Hin|].
  cbn in Hnd. apply NoDup_cons_iff in Hnd as [Hq Hnd].
  change (ren_all (q :: ps) (pa_name p)) with (ren_all ps (ren (pa_name q) (pa_py q) (pa_name p))).
  destruct Hin as [->|Hin].
  - unfold ren. rewrite str_eqb_refl. apply ren_all_fixed. intros q' Hq' E.
    assert (p = q') by (apply Hcap; [now left|now right|exact E]). subst q'.
    apply Hq. now apply in_map.
  - unfold ren. rewrite str_eqb_neq.
    + apply IH; auto. intros a b Ha Hb. apply Hcap; now right.
    + intro E. apply Hq. rewrite <- E. now apply in_map.
Qed.

(* format_fuel matches on the literals 123 and 125: the binary digits of c must be exposed for the match to reduce *)
Lemma format_char f c r a : c <> 123 -> c <> 125 ->
  format_fuel (S f) (c :: r) a = option_map (cons c) (format_fuel f r a).
Proof.
  intros H1 H2. destruct c as [|p]; [reflexivity|].
  do 7 (try (destruct p as [p|p|]; try reflexivity)); try (exfalso; apply H1; reflexivity); exfalso; apply H2; reflexivity.
Qed.

(* the `{name}` branch of format_fuel *)
Definition format_placeholder (f : nat) (s : str) (a : args) : option str :=
  match take_field s [] with
  | Some (name, rest) =>
      match name with
      | c :: _ => if ident_start c then
                    match arg a name with
                    | Some v => match str_of v, format_fuel f rest a with
                                | Some t, Some out => Some (t ++ out)
                                | _, _ => None end
                    | None => None
                    end
                  else None
      | [] => None
      end
  | None => None
  end.

Lemma format_open f c r a : c <> 123 -> format_fuel (S f) (123 :: c :: r) a = format_placeholder f (c :: r) a.
Proof.
  intros H1. destruct c as [|p]; [reflexivity|].
  do 7 (try (destruct p as [p|p|]; try reflexivity)); exfalso; apply H1; reflexivity.
Qed.

(* plain_name spells this test out *)
Definition field_char (c : N) : bool := negb ((c =? 123) || (c =? 125) || (c =? 33) || (c =? 58) || (c =? 46) || (c =? 91)).
Lemma take_field_name u : forall acc R, forallb field_char u = true -> take_field (u ++ 125 :: R) acc = Some (rev acc ++ u, R).
Proof.
  induction u as [|c u IH]; intros acc R H.
  - cbn. now rewrite app_nil_r.
  - cbn [forallb] in H. apply andb_true_iff in H as [Hc H]. cbn [app take_field].
    unfold field_char in Hc. apply negb_true_iff in Hc. rewrite !orb_false_iff in Hc.
    destruct Hc as [[[[[H123 H125] H33] H58] H46] H91]. rewrite H125, H123, H33, H58, H46, H91. cbn [orb].
    rewrite IH by exact H. cbn [rev]. now rewrite <- app_assoc.
Qed.

Lemma format_lit s : no_brace s = true -> forall R a fuel, (length (s ++ R) < fuel)%nat ->
  format_fuel fuel (s ++ R) a = option_map (app s) (format_fuel (fuel - length s) R a).
Proof.
  induction s as [|c s IH]; intros Hs R a fuel Hf.
  - cbn [app length]. rewrite Nat.sub_0_r. now destruct (format_fuel fuel R a).
  - apply no_brace_cons in Hs as [H1 [H2 Hs]]. destruct fuel as [|fuel]; [cbn in Hf; lia|].
    cbn [app length Nat.sub]. rewrite format_char by assumption. rewrite IH; [|exact Hs|cbn in Hf; lia].
    now destruct (format_fuel (fuel - length s) R a).
Qed.

Lemma format_field f n R a : plain_name n = true ->
  format_fuel (S f) (braces n ++ R) a =
    match arg a n with
    | Some v => match str_of v, format_fuel f R a with Some t, Some out => Some (t ++ out) | _, _ => None end
    | None => None
    end.
Proof.
  unfold plain_name. intro H. apply andb_true_iff in H as [Hst Hch].
  destruct n as [|c n]; [discriminate Hst|]. unfold braces. cbn [app].
  rewrite format_open by (intros ->; discriminate Hst). unfold format_placeholder.
  rewrite <- app_assoc. cbn [app]. change (c :: n ++ 125 :: R) with ((c :: n) ++ 125 :: R).
  rewrite take_field_name by exact Hch. cbn [rev app]. now rewrite Hst.
Qed.

(* "path".format(name=value, ...), slot by slot *)
Fixpoint subst_py (segs : list seg) (a : args) : option str :=
  match segs with
  | [] => Some []
  | Lit s :: r => option_map (app s) (subst_py r a)
  | Slot n :: r =>
      match arg a n with
      | Some v => match str_of v, subst_py r a with Some t, Some out => Some (t ++ out) | _, _ => None end
      | None => None
      end
  end.

Lemma format_slots a : forall segs, lits_ok segs = true -> forallb plain_name (slots segs) = true ->
  forall fuel, (length (render_tpl segs) < fuel)%nat ->
  format_fuel fuel (render_tpl segs) a = subst_py segs a.
Proof.
  induction segs as [|x segs IH]; intros Hok Hpl fuel Hf.
  - destruct fuel; [cbn in Hf; lia|reflexivity].
  - cbn [lits_ok forallb] in Hok. apply andb_true_iff in Hok as [Hx Hok].
    rewrite slots_cons, forallb_app in Hpl. apply andb_true_iff in Hpl as [Hn Hpl].
    rewrite render_cons in *. rewrite app_length in Hf.
    destruct x as [s|n]; cbn [render_seg subst_py] in *.
    + rewrite format_lit; [|exact Hx|rewrite app_length; lia].
      rewrite IH; [reflexivity|exact Hok|exact Hpl|lia].
    + destruct fuel as [|fuel]; [lia|]. apply andb_true_iff in Hn as [Hn _].
      rewrite format_field by exact Hn. destruct (arg a n) as [v|]; [|reflexivity].
      unfold braces in Hf. cbn [length] in Hf. rewrite IH; [reflexivity|exact Hok|exact Hpl|lia].
Qed.

Lemma find_wire ps n : In n (wire_names ps) -> exists p, find (fun p => str_eqb (pa_name p) n) ps = Some p /\ In p ps /\ pa_name p = n.
Proof.
  intro H. destruct (find (fun p => str_eqb (pa_name p) n) ps) as [p|] eqn:E.
  - exists p. apply find_some in E as [Hi He]. apply str_eqb_eq in He. auto.
  - apply in_map_iff in H as [p [Hp Hi]]. apply (find_none _ _ E) in Hi. cbn in Hi. rewrite Hp, str_eqb_refl in Hi. discriminate.
Qed.

Lemma subst_py_ren_all ps a : NoDup (wire_names ps) -> no_capture ps ->
  forall segs, (forall n, In n (slots segs) -> In n (wire_names ps)) ->
  subst_py (map_seg (ren_all ps) segs) a = subst_segs segs ps a.
Proof.
  intros Hnd Hcap. induction segs as [|x segs IH]; intro Hsl; [reflexivity|].
  rewrite map_seg_cons. destruct x as [s|n]; cbn [subst_py subst_segs].
  - now rewrite IH.
  - destruct (find_wire ps n) as [p [Hfind [Hp <-]]]; [apply Hsl; now left|].
    rewrite Hfind, ren_all_wire by assumption.
    rewrite IH; [reflexivity|]. intros m Hm. apply Hsl. now right.
Qed.

Lemma path_format segs ps a :
  lits_ok segs = true -> slots segs = wire_names ps -> NoDup (wire_names ps) ->
  forallb (fun p => plain_name (pa_py p)) ps = true -> no_capture ps ->
  format_path (rewrite_path (render_tpl segs) ps) a = subst_segs segs ps a.
Proof.
  intros Hok Hsl Hnd Hplain Hcap. rewrite forallb_forall in Hplain.
  assert (Hren : forall n, In n (slots segs) -> plain_name (ren_all ps n) = true).
  { intros n Hn. rewrite Hsl in Hn. apply in_map_iff in Hn as [p [<- Hp]]. rewrite ren_all_wire by assumption. now apply Hplain. }
  rewrite rewrite_render.
  - unfold format_path. rewrite format_slots.
    + apply subst_py_ren_all; auto. intros n Hn. now rewrite <- Hsl.
    + now apply lits_ok_map.
    + rewrite slots_map. apply forallb_forall. intros m Hm. apply in_map_iff in Hm as [n [<- Hn]]. now apply Hren.
    + lia.
  - exact Hok.
  - intros p Hp. split; [|now apply Hplain]. apply (lits_ok_slots segs Hok). rewrite Hsl. now apply in_map.
Qed.

(* C03; distinct python names and present, printable arguments are not needed (path_format) *)
Theorem path_slots : forall segs ps a,
  lits_ok segs = true -> slots segs = wire_names ps -> NoDup (wire_names ps) -> NoDup (map pa_py ps) ->
  forallb (fun p => plain_name (pa_py p)) ps = true -> no_capture ps ->
  (forall p, In p ps -> exists v t, arg a (pa_py p) = Some v /\ str_of v = Some t) ->
  format_path (rewrite_path (render_tpl segs) ps) a = subst_segs segs ps a.
Proof. intros segs ps a Hok Hsl Hnd _ Hplain Hcap _. now apply path_format. Qed.

(* C04: _parse_response *)
Lemma dec_field_req d k j : dec_field d k true (Some j) = d k j.
Proof. destruct k; try reflexivity. cbn [dec_field negb]. now rewrite andb_false_r. Qed.

Definition decode_response (orc : oracles) (T : ctable) (f : nat) (r : response) (h : hresp) : presult :=
  match source_value (rs_source r) h with
  | None => PRaiseOther
  | Some j => match rs_kind r with
              | KFile => PVal (Some (PJ j))
              | _ => if has_construct (rs_kind r)
                     then match dec orc T f (rs_kind r) j with Some v => PVal (Some v) | None => PRaiseOther end
                     else PVal (Some (PJ j))
              end
  end.

Lemma parse_response_documented orc T f rs parsed flag h :
  parse_response orc T f rs parsed flag h =
    match documented rs (h_status h) with
    | Some r => if parsed then decode_response orc T f r h else PVal None
    | None => if flag then PRaiseUnexpected else PVal None
    end.
Proof.
  unfold documented. induction rs as [|r rest IH]; cbn [find parse_response]; [reflexivity|].
  destruct (Z.eqb (h_status h) (rs_status r)); [|exact IH].
  destruct parsed; [|reflexivity]. unfold decode_response.
  destruct (source_value (rs_source r) h) as [j|]; [|reflexivity]. now rewrite dec_field_req.
Qed.

(* the right-hand side is decode_response, written out *)
Theorem documented_status_decoded : forall orc T f rs flag h r,
  documented rs (h_status h) = Some r ->
  parse_response orc T f rs true flag h =
    match source_value (rs_source r) h with
    | None => PRaiseOther
    | Some j => match rs_kind r with
                | KFile => PVal (Some (PJ j))
                | _ => if has_construct (rs_kind r)
                       then match dec orc T f (rs_kind r) j with Some v => PVal (Some v) | None => PRaiseOther end
                       else PVal (Some (PJ j))
                end
    end.
Proof. intros orc T f rs flag h r H. now rewrite parse_response_documented, H. Qed.

Theorem no_schema_no_value : forall orc T f rs flag h r,
  documented rs (h_status h) = Some r -> parse_response orc T f rs false flag h = PVal None.
Proof. intros orc T f rs flag h r H. now rewrite parse_response_documented, H. Qed.

Theorem undocumented_status : forall orc T f rs parsed flag h,
  documented rs (h_status h) = None ->
  parse_response orc T f rs parsed flag h = if flag then PRaiseUnexpected else PVal None.
Proof. intros orc T f rs parsed flag h H. now rewrite parse_response_documented, H. Qed.

Lemma k_ok_not_file {A} k (x y : A) : k_ok k = true -> match k with KFile => x | _ => y end = y.
Proof. destruct k; intro H; try reflexivity. discriminate H. Qed.

Theorem parsed_value_typed : forall orc T f rs flag h r j v,
  table_ok T = true -> k_ok (rs_kind r) = true -> wf_json j = true ->
  documented rs (h_status h) = Some r -> source_value (rs_source r) h = Some j ->
  valid orc T f (rs_kind r) j = true ->
  parse_response orc T f rs true flag h = PVal (Some v) -> inhabits v (type_of (rs_kind r) true) = true.
Proof.
  intros orc T f rs flag h r j v HT Hk Hw Hdoc Hsrc Hval H.
  rewrite (documented_status_decoded _ _ _ _ _ _ _ Hdoc), Hsrc, k_ok_not_file in H by exact Hk.
  (* a kind without a constructor is cast, and dec passes such a value through as well *)
  assert (Hd: dec orc T f (rs_kind r) j = Some v).
  { destruct (has_construct (rs_kind r)) eqn:Ec.
    - destruct (dec orc T f (rs_kind r) j); [|discriminate H]. now injection H as ->.
    - injection H as <-. destruct f as [|f]; [discriminate Hval|]. cbn [dec]. unfold dec_step. now rewrite Ec. }
  eapply decode_inhabits_annotation; eauto.
Qed.

(* two responses with one status: the second `if response.status_code == ...` block is never reached *)
Theorem status_alias_refuted_corrected : exists rs h r2,
  In r2 rs /\ rs_status r2 = h_status h /\ documented rs (h_status h) <> Some r2.
Proof.
  exists [ {| rs_status := 200%Z; rs_kind := KStr; rs_source := SJson |}; {| rs_status := 200%Z; rs_kind := KInt; rs_source := SJson |} ],
    {| h_status := 200%Z; h_json := None; h_text := []; h_bytes := [] |},
    {| rs_status := 200%Z; rs_kind := KInt; rs_source := SJson |}.
  split; [right; left; reflexivity|]. split; [reflexivity|]. cbn. discriminate.
Qed.

(* documented ignores orc, T, f and flag *)
Theorem status_alias_refuted : exists (orc : oracles) (T : ctable) (f : nat) rs (flag : bool) h r2,
  In r2 rs /\ rs_status r2 = h_status h /\ documented rs (h_status h) <> Some r2.
Proof.
  destruct status_alias_refuted_corrected as (rs & h & r2 & H).
  now exists {| parse_date := fun _ => None; parse_datetime := fun _ => None; parse_uuid := fun _ => None |}, [], 0%nat, rs, false, h, r2.
Qed.

Print Assumptions query_unset_absent.
Print Assumptions query_placement.
Print Assumptions query_nothing_else.
Print Assumptions header_unset_absent.
Print Assumptions header_placement.
Print Assumptions header_nothing_else.
Print Assumptions cookie_unset_absent.
Print Assumptions cookie_placement.
Print Assumptions cookie_nothing_else.
Print Assumptions method_literal.
Print Assumptions content_type_matches.
Print Assumptions security_demands_auth.
Print Assumptions multi_body_same_type_refuted.
Print Assumptions path_slots.
Print Assumptions documented_status_decoded.
Print Assumptions no_schema_no_value.
Print Assumptions undocumented_status.
Print Assumptions parsed_value_typed.
Print Assumptions status_alias_refuted.
Print Assumptions status_alias_refuted_corrected.
