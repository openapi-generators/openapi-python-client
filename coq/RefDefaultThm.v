(* RefDefaultThm.v — C13: defaults that travel through a reference (ref_default_revalidated), an allOf merge
   (merge_default_reconverted) or the null-member rewrite of an enum are convert_value of the FINAL kind on the raw value,
   or an error; never reused, never dropped. *)
From Coq Require Import NArith ZArith List Bool Lia.
Import ListNotations.
Require Import OPC.gen.GenTables OPC.Uni OPC.Names OPC.NamesThm OPC.PyLit OPC.PyLitThm OPC.Values OPC.PyEval OPC.ValuesThm OPC.ValuesThm2
               OPC.Merge OPC.MergeThm OPC.RefDefault.
Open Scope N_scope.

#[local] Opaque printable upper lower snake_case c_isalpha.

(* a non-null value is never converted to "no default" (in particular the falsy 0, 0.0, false and the empty string) *)

Theorem conv_ok_none : forall o k v, convert_value o k v = Ok None ->
  v = JNull \/ k = CList \/ exists ms, k = CUnion ms.
Proof.
  intros o k v H. destruct k; cbn [convert_value] in H;
    eauto 6 using conv_any_none, conv_none_none, conv_bool_none, conv_int_none, conv_float_none, conv_string_none,
                  conv_date_none, conv_datetime_none, conv_uuid_none, conv_file_none, conv_const_none, conv_enum_none,
                  conv_litenum_none.
  (* CModel converts as CFile does *)
Qed.

(* the default that survives the reference is convert_value of the REFERENCED kind on the raw value declared next to the reference *)
Theorem ref_default_revalidated : forall o existing name required pd p,
  property_from_ref o existing name required pd = ROk p ->
  r_kind p = r_kind existing /\ r_required p = required /\ r_name p = name /\
  convert_value o (r_kind existing) pd = Ok (r_default p).
Proof.
  intros o ex name rq pd p H. unfold property_from_ref in H.
  destruct (convert_value o (r_kind ex) pd) as [d| |]; try discriminate H. injection H as <-. cbn. auto.
Qed.

(* a declared (non-null) default is never silently dropped on this route: it is present in the result or the reference is an error *)
Theorem ref_default_not_dropped : forall o existing name required pd p,
  pd <> JNull -> r_kind existing <> CList -> (forall ms, r_kind existing <> CUnion ms) ->
  property_from_ref o existing name required pd = ROk p -> r_default p <> None.
Proof.
  intros o ex name rq pd p Hpd Hl Hu H. apply ref_default_revalidated in H as (_ & _ & _ & Hc).
  intros E. rewrite E in Hc. apply conv_ok_none in Hc as [X|[X|(ms & X)]]; [exact (Hpd X) | exact (Hl X) | exact (Hu ms X)].
Qed.

(* inside the guard the surviving default evaluates to the typed value of the referenced kind ... *)
Theorem ref_default_sound : forall o existing name required pd p,
  default_class o (r_kind existing) pd = 0 -> pd <> JNull ->
  property_from_ref o existing name required pd = ROk p ->
  exists x pv, r_default p = Some x /\ typed_value o (r_kind existing) pd = Some pv /\ eval_code (code x) = Some pv.
Proof.
  intros o ex name rq pd p Hc Hpd H. apply ref_default_revalidated in H as (_ & _ & _ & Hcv).
  exact (guarded_default_sound o _ pd _ Hc Hpd Hcv).
Qed.

(* ... and a value that denotes nothing of the referenced kind makes the reference an error (diagnostic), never a default *)
Theorem ref_default_complete : forall o existing name required pd,
  default_class o (r_kind existing) pd = 0 -> pd <> JNull -> typed_value o (r_kind existing) pd = None ->
  property_from_ref o existing name required pd = RErr.
Proof.
  intros o ex name rq pd Hc Hpd Ht. unfold property_from_ref. rewrite (default_complete o _ pd Hc Hpd Ht). reflexivity.
Qed.

Lemma ckind_of_like r b : like r b -> ckind_of r = ckind_of b.
Proof. unfold ckind_of. intros [-> ->]. reflexivity. Qed.

(* _merge_common_attributes(base, *extend_with): kind and payload of the result are the base's; EVERY override that declares a
   default has it re-converted by the base's (final, narrower) kind and the merge is an error if that fails; the surviving default is
   the base's own or such a re-conversion — an override's stored Value is never reused *)
Theorem merge_default_reconverted : forall o ext cur r, common o cur ext = MOk r ->
  ckind_of r = ckind_of cur /\
  (forall ov d, In ov ext -> mp_dflt ov = Some d -> exists od, convert_value o (ckind_of r) (raw d) = Ok od) /\
  (mp_dflt r = mp_dflt cur \/
   exists ov d x, In ov ext /\ mp_dflt ov = Some d /\ convert_value o (ckind_of r) (raw d) = Ok (Some x) /\ mp_dflt r = Some x).
Proof.
  intros o ext cur r H. split; [exact (ckind_of_like _ _ (common_like _ _ _ _ H))|].
  revert cur r H. induction ext as [|ov ext IH]; intros cur r H.
  - injection H as <-. split; [intros ov d []|]. left; reflexivity.
  - pose proof (ckind_of_like _ _ (common_like _ _ _ _ H)) as Hk.
    rewrite common_cons in H. destruct (conv_of o cur ov) as [od| |] eqn:Ec; try discriminate H.
    destruct cur as [k rq d0 ds e pl]. apply IH in H as (Hall & Hd).
    unfold conv_of in Ec. rewrite <- Hk in Ec. split.
    + intros ov' d' [<-|Hin] Hd'; [|apply (Hall ov' d' Hin Hd')]. rewrite Hd' in Ec. exists od. exact Ec.
    + destruct Hd as [Hd|(ov' & d' & x & Hin & Hd' & Hc' & Hr)].
      * cbn [mp_dflt] in Hd. destruct od as [x|]; [|left; exact Hd].
        destruct (mp_dflt ov) as [dv|] eqn:Ed; [|discriminate Ec].
        right. exists ov, dv, x. auto using in_eq.
      * right. exists ov', d', x. auto using in_cons.
Qed.

(* the LAST override wins: if it declares a default, the result's default is exactly its re-conversion by the final kind *)
Theorem merge_last_default_wins : forall o pre ov cur r d x,
  common o cur (pre ++ [ov]) = MOk r -> mp_dflt ov = Some d ->
  convert_value o (ckind_of r) (raw d) = Ok (Some x) -> mp_dflt r = Some x.
Proof.
  intros o. induction pre as [|p pre IH]; intros ov cur r d x H Hd Hc; cbn [app] in H.
  - rewrite (ckind_of_like _ _ (common_like _ _ _ _ H)) in Hc.
    rewrite common_cons in H. unfold conv_of in H. rewrite Hd, Hc in H.
    destruct cur as [k rq d0 ds e pl]. injection H as <-. reflexivity.
  - rewrite common_cons in H. destruct (conv_of o cur p) as [od| |]; try discriminate H.
    destruct cur as [k rq d0 ds e pl]. apply (IH _ _ _ _ _ H Hd Hc).
Qed.

(* with the guard of default_sound: a surviving override default evaluates to the typed value of the FINAL kind *)
Theorem merge_last_default_sound : forall o pre ov cur r d,
  common o cur (pre ++ [ov]) = MOk r -> mp_dflt ov = Some d -> raw d <> JNull ->
  default_class o (ckind_of r) (raw d) = 0 ->
  exists x pv, mp_dflt r = Some x /\ typed_value o (ckind_of r) (raw d) = Some pv /\ eval_code (code x) = Some pv.
Proof.
  intros o pre ov cur r d H Hd Hn Hc.
  destruct (merge_default_reconverted o _ _ _ H) as (_ & Hall & _).
  destruct (Hall ov d) as (od & Hcv); [apply in_or_app; right; left; reflexivity | exact Hd |].
  destruct (guarded_default_sound o _ _ _ Hc Hn Hcv) as (x & pv & -> & Ht & He). exists x, pv.
  split; [apply (merge_last_default_wins o pre ov cur r d x H Hd Hcv) | auto].
Qed.

(* a default outside the narrowed kind is an error of the merge: enum [fast] merged with an override default slow *)
Theorem merge_narrowed_default_rejected : exists o cur ov, common o cur [ov] = MErr /\ mp_dflt ov <> None.
Proof.
  exists wit_oracles,
    (MP MEnum false None None None (PL_enum VStr [([70], EStr [102])] [66])),
    (MP MEnum false (Some {| code := [69;46;83]; raw := JStr [115] |}) None None (PL_enum VStr [([70], EStr [102]); ([83], EStr [115])] [69])).
  split; [vm_compute; reflexivity | discriminate].
Qed.

(* the rewritten union carries the outer default: for every declared default that is not the literal text None, the nullable enum's
   default is exactly what the null-free enum makes of it (a member / a listed value, or an error) - never dropped *)
Theorem nullable_default_carried : forall o inner pd,
  conv_none pd = Err -> nullable_enum_default o inner pd = convert_value o inner pd.
Proof.
  intros o inner pd Hn. unfold nullable_enum_default.
  rewrite convert_union_nonnull by (intros ->; discriminate Hn).
  rewrite !union_go_cons. cbn [convert_value union_go]. rewrite Hn. cbn [is_err].
  destruct (convert_value o inner pd) as [d| |]; reflexivity.
Qed.

Theorem nullable_default_not_dropped : forall o vt cls ms vals pd d,
  pd <> JNull -> conv_none pd = Err ->
  (nullable_enum_default o (CEnum vt cls ms) pd = Ok d -> d <> None) /\
  (nullable_enum_default o (CLitEnum vt vals) pd = Ok d -> d <> None).
Proof.
  intros o vt cls ms vals pd d Hpd Hn. rewrite !(nullable_default_carried _ _ _ Hn). cbn [convert_value].
  split; intros H ->; [apply conv_enum_none in H | apply conv_litenum_none in H]; exact (Hpd H).
Qed.

Print Assumptions nullable_default_carried.
Print Assumptions nullable_default_not_dropped.

Print Assumptions conv_ok_none.
Print Assumptions ref_default_revalidated.
Print Assumptions ref_default_not_dropped.
Print Assumptions ref_default_sound.
Print Assumptions ref_default_complete.
Print Assumptions merge_default_reconverted.
Print Assumptions merge_last_default_wins.
Print Assumptions merge_last_default_sound.
