(* ClientThm.v — own_credential by an invariant of worlds (Inv): every heap dict has distinct keys, each an auth header name of A
   or one that httpx identifies with none of them; every cached header list holds exactly one value under its client's auth
   header name, the client's credential unless the token was reassigned since. *)
From Coq Require Import NArith List Bool.
Import ListNotations.
Require Import OPC.Uni OPC.UniThm OPC.Client.
Open Scope N_scope.

(* R: a property of a state and the operations still to come (a checker such as own_credential_run, or where the run ends) *)
Lemma along_run {S O X} (step : S -> O -> S * X) (I : S -> Prop) (ok : O -> bool) (R : S -> list O -> Prop) :
  (forall s o, I s -> ok o = true -> I (fst (step s o))) ->
  (forall s, I s -> R s []) ->
  (forall s o r, I s -> R (fst (step s o)) r -> R s (o :: r)) ->
  forall s ops, I s -> forallb ok ops = true -> R s ops.
Proof.
  intros Hstep Hnil Hcons s ops. revert s. induction ops as [|o r IH]; intros s Hs Hok.
  - now apply Hnil.
  - cbn [forallb] in Hok. apply andb_true_iff in Hok as [Ho Hr]. apply Hcons; auto.
Qed.

Lemma key_eqb_refl a : key_eqb a a = true.
Proof. unfold key_eqb. apply str_eqb_refl. Qed.

Lemma key_eqb_sym a b : key_eqb a b = key_eqb b a.
Proof. unfold key_eqb. apply str_eqb_sym. Qed.

Lemma key_eqb_congr_l a b : key_eqb a b = true -> forall c, key_eqb a c = key_eqb b c.
Proof. unfold key_eqb. intros H c. apply str_eqb_eq in H. now rewrite H. Qed.

Lemma plain_not_match A k a : plain_key A k = true -> In a A -> key_eqb k a = false.
Proof.
  unfold plain_key. intros Hp Hin. apply negb_true_iff in Hp.
  destruct (key_eqb k a) eqn:E; [|reflexivity].
  rewrite <- Hp. symmetry. apply existsb_exists. now exists a.
Qed.

Lemma consistent_spec A : consistent A = true -> forall a b, In a A -> In b A -> key_eqb a b = true -> a = b.
Proof.
  induction A as [|h r IH]; intros HC a b Ha Hb Hk; [destruct Ha|].
  cbn [consistent] in HC. apply andb_true_iff in HC as [HF HC]. rewrite forallb_forall in HF.
  assert (Hh : forall x, In x r -> key_eqb h x = true -> h = x).
  { intros x Hx Hkx. specialize (HF x Hx). rewrite Hkx in HF. now apply str_eqb_eq. }
  destruct Ha as [<-|Ha], Hb as [<-|Hb].
  - reflexivity.
  - now apply Hh.
  - symmetry. apply Hh; [exact Ha|]. now rewrite key_eqb_sym.
  - now apply IH.
Qed.

Lemma Forall_upd {T} (P : T -> Prop) l n x : Forall P l -> P x -> Forall P (upd l n x).
Proof.
  intros HF Hx. revert n. induction HF as [|y l Hy HF IH]; intros [|n]; cbn [upd]; constructor; auto.
Qed.

Lemma Forall_nth_error {T} (P : T -> Prop) l n x : Forall P l -> nth_error l n = Some x -> P x.
Proof. intros HF Hn. rewrite Forall_forall in HF. apply HF. eapply nth_error_In. exact Hn. Qed.

Lemma Forall_snoc {T} (P : T -> Prop) l x : Forall P l -> P x -> Forall P (l ++ [x]).
Proof. intros HF Hx. apply Forall_app. split; [exact HF|]. now constructor. Qed.

Lemma length_upd {T} (l : list T) n x : length (upd l n x) = length l.
Proof. revert n. induction l as [|y r IH]; intros [|n]; cbn [upd length]; auto. Qed.

Lemma nth_error_snoc {T} (l : list T) x : nth_error (l ++ [x]) (length l) = Some x.
Proof. rewrite nth_error_app2 by apply le_n. now rewrite PeanoNat.Nat.sub_diag. Qed.

Lemma dset_keys_in d k v k' : In k' (dkeys (dset d k v)) -> k' = k \/ In k' (dkeys d).
Proof.
  induction d as [|[k0 v0] r IH]; cbn [dset].
  - intros [H|[]]. now left.
  - destruct (str_eqb_spec k k0) as [->|_]; [now right|]. cbn [dkeys map fst]. intros [H|H].
    + right. now left.
    + destruct (IH H) as [H'|H']; [now left|right; now right].
Qed.

Lemma dset_nodup d k v : NoDup (dkeys d) -> NoDup (dkeys (dset d k v)).
Proof.
  induction d as [|[k0 v0] r IH]; cbn [dset]; intro ND.
  - repeat constructor. intros [].
  - destruct (str_eqb_spec k k0) as [->|Hne]; [exact ND|]. cbn [dkeys map fst] in *.
    inversion ND as [|x l Hn ND']; subst. constructor; [|now apply IH].
    intro Hin. apply dset_keys_in in Hin as [->|Hin]; [now apply Hne|contradiction].
Qed.

Definition key_ok (A : list str) (k : str) : Prop := mem_str k A = true \/ plain_key A k = true.
Definition dict_ok (A : list str) (d : dict) : Prop :=
  NoDup (dkeys d) /\ forall k, In k (dkeys d) -> key_ok A k.

Lemma dict_ok_nil A : dict_ok A [].
Proof. split; [constructor|intros k []]. Qed.

Lemma dset_ok A d k v : dict_ok A d -> key_ok A k -> dict_ok A (dset d k v).
Proof.
  intros [ND HK] Hk. split; [now apply dset_nodup|].
  intros k' Hin. apply dset_keys_in in Hin as [->|Hin]; auto.
Qed.

Lemma dmerge_ok A b : forall a, dict_ok A a -> forallb (plain_key A) (dkeys b) = true -> dict_ok A (dmerge a b).
Proof.
  unfold dmerge. induction b as [|[k v] b IH]; intros a Ha Hb; [exact Ha|].
  cbn [dkeys map fst forallb] in Hb. apply andb_true_iff in Hb as [Hk Hb].
  cbn [fold_left fst snd]. apply IH; [|exact Hb]. apply dset_ok; [exact Ha|now right].
Qed.

Lemma heap_dict_ok A hp n : Forall (dict_ok A) hp -> dict_ok A (nth n hp []).
Proof.
  intro HH. destruct (nth_in_or_default n hp []) as [H| ->]; [|apply dict_ok_nil].
  rewrite Forall_forall in HH. now apply HH.
Qed.

Lemma hget_cons k v r a : hget ((k, v) :: r) a = if key_eqb k a then v :: hget r a else hget r a.
Proof. unfold hget. cbn [filter fst]. now destruct (key_eqb k a). Qed.

Lemma hget_none r a : (forall k, In k (dkeys r) -> key_eqb k a = false) -> hget r a = [].
Proof.
  induction r as [|[k v] r IH]; intro H; [reflexivity|].
  rewrite hget_cons, (H k) by now left. apply IH. intros k' Hin. apply H. now right.
Qed.

Lemma hget_dset d a x : NoDup (dkeys d) -> (forall k, In k (dkeys d) -> key_eqb k a = true -> k = a) ->
  hget (of_dict (dset d a x)) a = [x].
Proof.
  unfold of_dict. induction d as [|[k v] r IH]; cbn [dset]; intros ND H.
  - now rewrite hget_cons, key_eqb_refl.
  - cbn [dkeys map fst] in *. inversion ND as [|y l Hn ND']; subst.
    assert (Hr : forall k', In k' (map fst r) -> key_eqb k' a = true -> k' = a) by (intros k' Hin; apply H; now right).
    destruct (str_eqb_spec a k) as [<-|Hne]; rewrite hget_cons.
    + rewrite key_eqb_refl. f_equal. apply hget_none. intros k' Hin.
      destruct (key_eqb k' a) eqn:E; [|reflexivity]. apply Hr in E as ->; [contradiction|exact Hin].
    + destruct (key_eqb k a) eqn:E; [|apply IH; assumption].
      apply H in E; [|now left]. now symmetry in E.
Qed.

Lemma hget_dset_ok A d a x : consistent A = true -> dict_ok A d -> mem_str a A = true -> hget (of_dict (dset d a x)) a = [x].
Proof.
  intros HC [ND HK] Ha. apply mem_str_In in Ha. apply hget_dset; [exact ND|].
  intros k Hin Hk. destruct (HK k Hin) as [H|H].
  - apply mem_str_In in H. now apply (consistent_spec A).
  - now rewrite (plain_not_match A k a H Ha) in Hk.
Qed.

Lemma hget_hremove_other h k a : key_eqb k a = false -> hget (hremove h k) a = hget h a.
Proof.
  intro Hk. induction h as [|[k0 v0] r IH]; [reflexivity|].
  unfold hremove. cbn [filter fst]. fold (hremove r k). destruct (key_eqb k0 k) eqn:E; cbn [negb]; rewrite !hget_cons.
  - now rewrite (key_eqb_congr_l _ _ E a), Hk.
  - now rewrite IH.
Qed.

Lemma hget_hset_other h k v a : key_eqb k a = false -> hget (hset h k v) a = hget h a.
Proof.
  intro Hk. induction h as [|[k0 v0] r IH]; cbn [hset].
  - now rewrite hget_cons, Hk.
  - destruct (key_eqb k0 k) eqn:E; rewrite !hget_cons.
    + rewrite (key_eqb_congr_l _ _ E a), Hk. now apply hget_hremove_other.
    + now rewrite IH.
Qed.

Lemma hget_hupdate_other d a : (forall k, In k (dkeys d) -> key_eqb k a = false) -> forall h, hget (hupdate h d) a = hget h a.
Proof.
  unfold hupdate. induction d as [|[k v] d IH]; intros H h; [reflexivity|].
  cbn [fold_left fst snd]. rewrite IH by (intros k' Hin; apply H; now right).
  apply hget_hset_other. apply H. now left.
Qed.

Definition cache_ok (a : str) (dty : bool) (cr : str) (o : option hdrs) : Prop :=
  match o with
  | None => True
  | Some h => exists x, hget h a = [x] /\ (dty = false -> x = cr)
  end.
Definition client_ok (A : list str) (c : client) : Prop :=
  mem_str (authname c) A = true /\
  cache_ok (authname c) (dirty c) (cred c) (csync c) /\
  cache_ok (authname c) (dirty c) (cred c) (casync c).
Definition Inv (A : list str) (w : world) : Prop :=
  Forall (dict_ok A) (heap w) /\ Forall (client_ok A) (clients w).

Lemma Inv_init : forall A, Inv A init.
Proof. intro A. split; constructor. Qed.

Lemma client_ok_cache A c v : client_ok A c -> cache_ok (authname c) (dirty c) (cred c) (cache c v).
Proof. intros (_ & Hs & Has). now destruct v. Qed.

Lemma unused_client_ok A c : mem_str (authname c) A = true -> csync c = None -> casync c = None -> client_ok A c.
Proof. intros Ha Hs Has. unfold client_ok. now rewrite Hs, Has. Qed.

Lemma set_cache_ok A c v h : client_ok A c -> cache_ok (authname c) (dirty c) (cred c) (Some h) -> client_ok A (set_cache c v h).
Proof. intros (Ha & Hs & Has) Hh. destruct v; repeat split; assumption. Qed.

Lemma cache_ok_dirty a dty cr cr' o : cache_ok a dty cr o -> cache_ok a true cr' o.
Proof. destruct o as [h|]; [|trivial]. intros (x & Hx & _). exists x. now split. Qed.

Lemma cache_ok_hupdate A a dty cr o h :
  mem_str a A = true -> forallb (plain_key A) (dkeys h) = true ->
  cache_ok a dty cr o -> cache_ok a dty cr (option_map (fun x => hupdate x h) o).
Proof.
  intros Ha Hh Ho. destruct o as [x|]; [|exact I]. cbn [option_map cache_ok] in *.
  rewrite hget_hupdate_other; [exact Ho|].
  intros k Hin. rewrite forallb_forall in Hh. apply (plain_not_match A); [now apply Hh|now apply mem_str_In].
Qed.

Lemma Inv_add_unused A w c : Inv A w -> mem_str (authname c) A = true -> csync c = None -> casync c = None ->
  Inv A {| heap := heap w; clients := clients w ++ [c] |}.
Proof. intros [HH HCl] Ha Hs Has. split; [exact HH|]. apply Forall_snoc; [exact HCl|]. now apply unused_client_ok. Qed.

Lemma Inv_step : forall A w o, consistent A = true -> Inv A w -> op_ok A o = true -> Inv A (fst (step w o)).
Proof.
  intros A w o HC HI Hok. pose proof HI as [HH HCl].
  destruct o as [tok pre auth h0|i tok|i pre auth|i|i h|i tok|i v]; cbn [step op_ok] in *.
  (* all but New address a client c; a bad index changes nothing *)
  2-7: destruct (nth_error (clients w) i) as [c|] eqn:E; [|exact HI].
  2-7: pose proof (Forall_nth_error _ _ _ _ HCl E) as Hc; pose proof Hc as (Ha & Hs & Has).
  - (* New *)
    apply andb_true_iff in Hok as [Ha Hh]. split; cbn [fst heap clients]; apply Forall_snoc; trivial.
    + apply dmerge_ok; [apply dict_ok_nil|exact Hh].
    + now apply unused_client_ok.
  - (* EvolveToken *) now apply Inv_add_unused.
  - (* EvolveAuth *) apply Inv_add_unused; [exact HI|exact Hok|reflexivity|reflexivity].
  - (* Derive *) now apply Inv_add_unused.
  - (* WithHeaders *)
    split; cbn [fst heap clients]; apply Forall_snoc.
    + exact HH.
    + apply dmerge_ok; [now apply heap_dict_ok|exact Hok].
    + apply Forall_upd; [exact HCl|]. unfold client_ok, cred. cbn [authname dirty prefix token csync casync].
      split; [exact Ha|]. split; now apply (cache_ok_hupdate A).
    + now apply unused_client_ok.
  - (* SetToken *)
    split; cbn [fst heap clients]; [exact HH|]. apply Forall_upd; [exact HCl|].
    destruct (has_cache c) eqn:Eh.
    + unfold client_ok. cbn [authname dirty csync casync]. rewrite orb_true_r.
      split; [exact Ha|]. split; eapply cache_ok_dirty; eassumption.
    + unfold has_cache in Eh. apply unused_client_ok; [exact Ha| |]; cbn [csync casync]; destruct (csync c), (casync c); easy.
  - (* Use *)
    destruct (cache c v) as [hc|] eqn:Ec; [exact HI|].
    pose proof (heap_dict_ok A _ (hid c) HH) as Hd.
    split; cbn [fst heap clients]; (apply Forall_upd; [assumption|]).
    + apply dset_ok; [exact Hd|]. now left.
    + apply set_cache_ok; [exact Hc|]. exists (cred c). split; [now apply (hget_dset_ok A)|reflexivity].
Qed.

Lemma Inv_run A : consistent A = true -> forall w ops, Inv A w -> forallb (op_ok A) ops = true -> Inv A (fst (run w ops)).
Proof.
  intro HC. apply (along_run step (Inv A) (op_ok A) (fun w ops => Inv A (fst (run w ops)))).
  - intros w o. now apply Inv_step.
  - trivial.
  - intros w o r _. cbn [run]. destruct (step w o) as [w1 out]. cbn [fst]. now destruct (run w1 r).
Qed.

Lemma use_output A w i v c : consistent A = true -> Inv A w -> nth_error (clients w) i = Some c ->
  exists x, snd (step w (Use i v)) = Some [x] /\ (dirty c = false -> x = cred c).
Proof.
  intros HC [HH HCl] E. cbn [step]. rewrite E.
  pose proof (Forall_nth_error _ _ _ _ HCl E) as Hc. pose proof (client_ok_cache A c v Hc) as Hv.
  destruct (cache c v) as [h|]; cbn [snd].
  - destruct Hv as (x & Hx & Hcr). exists x. now rewrite Hx.
  - exists (cred c). split; [|reflexivity]. f_equal. apply (hget_dset_ok A); [exact HC|now apply heap_dict_ok|apply Hc].
Qed.

Theorem own_credential_from : forall A w ops, consistent A = true -> Inv A w -> forallb (op_ok A) ops = true -> own_credential_run w ops = true.
Proof.
  intros A w ops HC. apply (along_run step (Inv A) (op_ok A) (fun w ops => own_credential_run w ops = true)).
  - intros w' o. now apply Inv_step.
  - reflexivity.
  - clear w ops. intros w o r HI Hr. cbn [own_credential_run].
    destruct (step w o) as [w1 out] eqn:Es. cbn [fst] in Hr. rewrite Hr, andb_true_r.
    destruct o as [| | | | | |i v]; try reflexivity.
    destruct (nth_error (clients w) i) as [c|] eqn:E; [|now destruct out].
    destruct (use_output A w i v c HC HI E) as (x & Hx & Hcr). rewrite Es in Hx. cbn [snd] in Hx. subst out.
    destruct (dirty c); [reflexivity|]. rewrite Hcr by reflexivity. apply str_eqb_refl.
Qed.

Theorem own_credential : forall (A : list str) (ops : list op),
  consistent A = true -> forallb (op_ok A) ops = true -> own_credential_run init ops = true.
Proof. intros A ops HC Hok. apply (own_credential_from A); [exact HC|apply Inv_init|exact Hok]. Qed.

Theorem derived_sends_own_token : forall (A : list str) (ops : list op) (i : nat) (tok : str) (v : variant) w c,
  consistent A = true -> forallb (op_ok A) ops = true ->
  fst (run init ops) = w -> nth_error (clients w) i = Some c ->
  snd (step (fst (step w (EvolveToken i tok))) (Use (length (clients w)) v)) = Some [cred (with_token c tok)].
Proof.
  intros A ops i tok v w c HC Hok Hw E.
  assert (HI : Inv A (fst (step w (EvolveToken i tok)))).
  { apply Inv_step; [exact HC| |reflexivity]. rewrite <- Hw. apply Inv_run; [exact HC|apply Inv_init|exact Hok]. }
  assert (E' : nth_error (clients (fst (step w (EvolveToken i tok)))) (length (clients w)) = Some (with_token (fresh_from c (hid c)) tok)).
  { cbn [step]. rewrite E. apply nth_error_snoc. }
  destruct (use_output A _ _ v _ HC HI E') as (x & Hx & Hcr). rewrite Hx, Hcr; reflexivity.
Qed.

(* the guard can be met (the length conjunct only records that the run is not a token one) *)
Definition exA : list str := [[65; 117; 116; 104]; [88; 45; 75]].
Definition exops : list op :=
  [ New [116; 49] [66] [65; 117; 116; 104] [([85; 65], [120])];
    Use 0 Sync;
    Derive 0;
    EvolveToken 0 [116; 50];
    Use 2 Async;
    EvolveAuth 2 [] [88; 45; 75];
    Use 3 Sync;
    WithHeaders 3 [([90], [122])];
    Use 4 Async;
    SetToken 1 [116; 51];
    Use 1 Sync;
    Use 0 Async ].

Example guard_satisfiable :
  consistent exA = true /\ forallb (op_ok exA) exops = true /\ Nat.leb 8 (length exops) = true /\
  snd (run init exops) =
    [ None; Some [[66; 32; 116; 49]]; None; None; Some [[66; 32; 116; 50]]; None; Some [[116; 50]]; None; Some [[116; 50]];
      None; Some [[66; 32; 116; 51]]; Some [[66; 32; 116; 49]] ] /\
  own_credential_run init exops = true.
Proof. vm_compute. repeat split; reflexivity. Qed.

(* `c.token = t` after the httpx client was built: the old credential is still sent (why dirty clients are exempt) *)
Theorem stale_after_set_token_refuted : exists ops i v c vals, forallb (op_ok [[65]]) ops = true /\ nth_error (clients (fst (run init ops))) i = Some c /\
  snd (step (fst (run init ops)) (Use i v)) = Some vals /\ vals <> [cred c].
Proof.
  exists [New [49] [] [65] []; Use 0 Sync; SetToken 0 [50]], 0%nat, Sync.
  eexists. exists [[49]]. vm_compute. repeat split; try reflexivity. intro H. discriminate H.
Qed.

(* two spellings (A, a) of one auth header name: the shared dict keeps both keys, httpx sends both values *)
Theorem inconsistent_names_refuted : exists A ops, consistent A = false /\ forallb (op_ok A) ops = true /\ own_credential_run init ops = false.
Proof.
  exists [[65]; [97]], [New [49] [] [65] []; EvolveAuth 0 [] [97]; Use 0 Sync; Use 1 Sync].
  vm_compute. repeat split; reflexivity.
Qed.

(* a user header a beside the auth header A; no guard is mentioned, so this says less than the theorem above *)
Theorem user_key_clash_refuted : exists ops, own_credential_run init ops = false.
Proof.
  exists [New [49] [] [65] [([97], [120])]; Use 0 Sync].
  vm_compute. reflexivity.
Qed.

Print Assumptions own_credential.
Print Assumptions Inv_init.
Print Assumptions Inv_step.
Print Assumptions own_credential_from.
Print Assumptions derived_sends_own_token.
Print Assumptions guard_satisfiable.
Print Assumptions stale_after_set_token_refuted.
Print Assumptions inconsistent_names_refuted.
Print Assumptions user_key_clash_refuted.
