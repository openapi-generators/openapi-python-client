(* FsThm.v — proofs about Fs.v (C19, C06); what is said of histories follows from build_steps_normal. *)
From Coq Require Import NArith List Bool Lia.
Import ListNotations.
Require Import OPC.gen.GenTables OPC.Uni OPC.Names OPC.NamesThm OPC.Fs.
Open Scope N_scope.

Lemma path_eqb_eq a : forall b, path_eqb a b = true <-> a = b.
Proof.
  induction a as [|x a IH]; intros [|y b]; cbn [path_eqb]; split; intro H;
    try reflexivity; try discriminate.
  - apply andb_true_iff in H. destruct H as [H1 H2].
    apply str_eqb_eq in H1. apply IH in H2. subst. reflexivity.
  - injection H as Hx Ha. subst. apply andb_true_iff. split.
    + apply str_eqb_refl.
    + apply IH. reflexivity.
Qed.

Lemma path_eqb_refl a : path_eqb a a = true.
Proof. apply path_eqb_eq. reflexivity. Qed.

Lemma path_eqb_sym a b : path_eqb a b = path_eqb b a.
Proof. apply eq_true_iff_eq. rewrite !path_eqb_eq. split; congruence. Qed.

Lemma mem_path_In p l : mem_path p l = true <-> In p l.
Proof.
  unfold mem_path. rewrite existsb_exists. split.
  - intros [x [Hin Hx]]. apply path_eqb_eq in Hx. subst. exact Hin.
  - intro Hin. exists p. split; [exact Hin | apply path_eqb_refl].
Qed.

Lemma lookup_write t q c p :
  lookup_path (write t q c) p = if path_eqb q p then Some c else lookup_path t p.
Proof. reflexivity. Qed.

Lemma lookup_write_all id ps : forall t p,
  lookup_path (write_all id t ps) p = if mem_path p ps then Some (Gen id) else lookup_path t p.
Proof.
  induction ps as [|q ps IH]; intros t p.
  - reflexivity.
  - unfold write_all in *. cbn [fold_left]. rewrite IH. rewrite lookup_write.
    unfold mem_path. cbn [existsb]. fold (mem_path p ps).
    rewrite (path_eqb_sym p q).
    destruct (mem_path p ps); destruct (path_eqb q p); reflexivity.
Qed.

Lemma lookup_rmtree pre p : forall t,
  lookup_path (rmtree t pre) p = if is_prefix_path pre p then None else lookup_path t p.
Proof.
  induction t as [|[k c] t IH].
  - cbn. destruct (is_prefix_path pre p); reflexivity.
  - unfold rmtree in *. cbn [filter fst lookup_path].
    destruct (path_eqb k p) eqn:Ekp.
    + apply path_eqb_eq in Ekp. subst k.
      destruct (is_prefix_path pre p); cbn [negb lookup_path]; [exact IH | now rewrite path_eqb_refl].
    + destruct (is_prefix_path pre k); cbn [negb lookup_path]; [|rewrite Ekp]; exact IH.
Qed.

Lemma write_all_app id t ps qs : write_all id t (ps ++ qs) = write_all id (write_all id t ps) qs.
Proof. apply fold_left_app. Qed.

Lemma rmtree_write_all id pre ps : (forall q, In q ps -> is_prefix_path pre q = false) ->
  forall t, rmtree (write_all id t ps) pre = write_all id (rmtree t pre) ps.
Proof.
  induction ps as [|q ps IH]; intros Hout t; [reflexivity|].
  unfold write_all in *. cbn [fold_left]. rewrite IH by (intros q' Hq'; apply Hout; now right).
  unfold rmtree, write. cbn [filter fst]. rewrite (Hout q) by now left. reflexivity.
Qed.

Lemma prefix_app_cons pp a b rest :
  is_prefix_path (pp ++ [a]) (pp ++ b :: rest) = str_eqb a b.
Proof.
  induction pp as [|x pp IH].
  - cbn [app is_prefix_path]. apply andb_true_r.
  - cbn [app is_prefix_path]. rewrite str_eqb_refl, IH. reflexivity.
Qed.

Lemma package_noprefix fl pkg a q :
  str_eqb a f_init = false -> str_eqb a f_pytyped = false -> str_eqb a f_types = false ->
  In q (package_files fl pkg) -> is_prefix_path (pkg_prefix fl pkg ++ [a]) q = false.
Proof.
  intros H1 H2 H3 Hin. unfold package_files in Hin.
  apply in_app_or in Hin. destruct Hin as [Hin | Hin].
  - destruct Hin as [<- | []]. rewrite prefix_app_cons. exact H1.
  - apply in_app_or in Hin. destruct Hin as [Hin | Hin].
    + destruct fl; [destruct Hin | ..];
        (destruct Hin as [Hin | []]; subst q; rewrite prefix_app_cons; exact H2).
    + destruct Hin as [<- | []]. rewrite prefix_app_cons. exact H3.
Qed.

Lemma meta_single fl q : In q (metadata_files fl) -> exists f,
  q = [f] /\ (f = f_pyproject \/ f = f_setup \/ f = f_readme \/ f = f_gitignore).
Proof.
  intro Hin. destruct fl; cbn [metadata_files In] in Hin;
    repeat (destruct Hin as [Hin | Hin]; [subst q; eexists; split; [reflexivity | tauto] | ]);
    destruct Hin.
Qed.

Lemma meta_noprefix fl pkg a q :
  In q (metadata_files fl) -> is_prefix_path (pkg_prefix fl pkg ++ [a]) q = false.
Proof.
  intros Hin. destruct (meta_single fl q Hin) as [f [-> _]].
  destruct fl; [destruct Hin | ..]; cbn [pkg_prefix app is_prefix_path]; apply andb_false_r.
Qed.

Lemma model_prefix fl pkg d a q :
  In q (model_files fl pkg d) -> is_prefix_path (pkg_prefix fl pkg ++ [a]) q = str_eqb a d_models_dir.
Proof.
  intro Hin. unfold model_files in Hin. apply in_app_or in Hin. destruct Hin as [Hin | Hin].
  - apply in_map_iff in Hin. destruct Hin as [m [<- _]]. apply prefix_app_cons.
  - destruct Hin as [<- | []]. apply prefix_app_cons.
Qed.

Lemma client_noprefix fl pkg a q :
  str_eqb a f_client = false -> str_eqb a f_errors = false ->
  In q (client_files fl pkg) -> is_prefix_path (pkg_prefix fl pkg ++ [a]) q = false.
Proof.
  intros H1 H2 Hin. unfold client_files in Hin.
  destruct Hin as [<- | [<- | []]]; rewrite prefix_app_cons; assumption.
Qed.

Lemma api_prefix fl pkg d a q :
  In q (api_files fl pkg d) -> is_prefix_path (pkg_prefix fl pkg ++ [a]) q = str_eqb a d_api_dir.
Proof.
  intro Hin. unfold api_files in Hin. destruct Hin as [<- | Hin].
  - apply prefix_app_cons.
  - apply in_flat_map in Hin. destruct Hin as [te [_ Hin]].
    destruct Hin as [<- | Hin].
    + apply prefix_app_cons.
    + apply in_map_iff in Hin. destruct Hin as [e [<- _]]. apply prefix_app_cons.
Qed.

Theorem no_overwrite_untouched : forall fl pkg d id t,
  build fl pkg false true d id t = (t, true).
Proof. intros. reflexivity. Qed.

(* everything written before a directory is removed lies outside it, so the removals move to the front *)
Lemma build_steps_normal fl pkg d id t :
  build_steps fl pkg d id t =
  write_all id (rmtree (rmtree t (pkg_prefix fl pkg ++ [d_models_dir])) (pkg_prefix fl pkg ++ [d_api_dir])) (gen_files fl pkg d).
Proof.
  unfold build_steps, gen_files. cbv zeta. rewrite !write_all_app.
  rewrite (rmtree_write_all id (_ ++ [d_api_dir]) (client_files fl pkg))
    by (intros q Hq; now apply client_noprefix).
  rewrite (rmtree_write_all id (_ ++ [d_api_dir]) (model_files fl pkg d))
    by (intros q Hq; now rewrite (model_prefix fl pkg d _ q Hq)).
  rewrite !(rmtree_write_all id _ (metadata_files fl)) by (intros q Hq; now apply meta_noprefix).
  rewrite !(rmtree_write_all id _ (package_files fl pkg)) by (intros q Hq; now apply package_noprefix).
  reflexivity.
Qed.

Theorem build_postcondition : forall fl pkg d id t p,
  lookup_path (build_steps fl pkg d id t) p =
    if mem_path p (gen_files fl pkg d) then Some (Gen id)
    else if managed fl pkg p then None else lookup_path t p.
Proof.
  intros fl pkg d id t p.
  rewrite build_steps_normal, lookup_write_all, !lookup_rmtree. unfold managed. cbv zeta.
  destruct (is_prefix_path (pkg_prefix fl pkg ++ [d_models_dir]) p);
    destruct (is_prefix_path (pkg_prefix fl pkg ++ [d_api_dir]) p); reflexivity.
Qed.

Lemma run_app fl pkg h1 h2 t : run fl pkg (h1 ++ h2) t = run fl pkg h2 (run fl pkg h1 t).
Proof. unfold run. apply fold_left_app. Qed.

Lemma run_cons fl pkg s h t : run fl pkg (s :: h) t = run fl pkg h (run_step fl pkg t s).
Proof. reflexivity. Qed.

Lemma run_step_build fl pkg id d t : run_step fl pkg t (Build id d) = build_steps fl pkg d id t.
Proof. reflexivity. Qed.

Theorem overwrite_converges : forall fl pkg h t id d p,
  managed fl pkg p = true ->
  lookup_path (run fl pkg (h ++ [Build id d]) t) p =
    if mem_path p (gen_files fl pkg d) then Some (Gen id) else None.
Proof.
  intros fl pkg h t id d p Hm.
  rewrite run_app, run_cons, run_step_build. cbn [run fold_left].
  rewrite build_postcondition, Hm. reflexivity.
Qed.

Definition is_user (s : step) : bool := match s with UserWrite _ _ => true | Build _ _ => false end.

Lemma run_agree fl pkg p :
  managed fl pkg p = false ->
  forall h t t',
  (forall id d, In (Build id d) h -> mem_path p (gen_files fl pkg d) = false) ->
  lookup_path t p = lookup_path t' p ->
  lookup_path (run fl pkg h t) p = lookup_path (run fl pkg (filter is_user h) t') p.
Proof.
  intros Hm. induction h as [|s h IH]; intros t t' Hh Ht.
  - exact Ht.
  - assert (Hh' : forall id d, In (Build id d) h -> mem_path p (gen_files fl pkg d) = false)
      by (intros id d Hin; apply (Hh id d); now right).
    destruct s as [id d | q u]; cbn [filter is_user]; rewrite ?run_cons; apply IH; try exact Hh'.
    + rewrite run_step_build, build_postcondition, Hm, (Hh id d (or_introl eq_refl)). exact Ht.
    + cbn [run_step]. rewrite !lookup_write, Ht. reflexivity.
Qed.

Theorem user_files_untouched : forall fl pkg h t p,
  managed fl pkg p = false ->
  (forall id d, In (Build id d) h -> mem_path p (gen_files fl pkg d) = false) ->
  lookup_path (run fl pkg h t) p = lookup_path (run fl pkg (filter is_user h) t) p.
Proof.
  intros fl pkg h t p Hm Hh. apply run_agree; auto.
Qed.

Definition safe_chars (c : str) : bool := forallb (fun x => negb ((x =? 47) || (x =? 92) || (x =? 0))) c.

Lemma safe_component_intro c :
  c <> [] -> c <> [46] -> c <> [46;46] -> safe_chars c = true -> safe_component c = true.
Proof.
  intros H1 H2 H3 Hs. unfold safe_component. rewrite !str_eqb_neq by assumption. exact Hs.
Qed.

Lemma safe_ext m : safe_chars m = true -> safe_component (m ++ ext_py) = true.
Proof.
  intro Hm.
  assert (Hlen : (3 <= length (m ++ ext_py))%nat) by (rewrite app_length; cbn [ext_py length]; lia).
  apply safe_component_intro; try (intro E; rewrite E in Hlen; cbn [length] in Hlen; lia).
  unfold safe_chars in *. rewrite forallb_app, Hm. reflexivity.
Qed.

Theorem writes_confined : forall fl pkg d p,
  safe_component pkg = true ->
  forallb safe_chars (d_models d) = true ->
  forallb (fun te => safe_component (fst te) && forallb safe_chars (snd te)) (d_tags d) = true ->
  In p (gen_files fl pkg d) -> forallb safe_component p = true.
Proof.
  intros fl pkg d p Hpkg Hmod Htag Hin.
  (* [repeat constructor] splits the list and decides the fixed names by evaluation *)
  assert (Hc : forall l, Forall (fun c => safe_component c = true) l -> forallb safe_component (pkg_prefix fl pkg ++ l) = true).
  { intros l Hl. rewrite forallb_app. apply andb_true_iff. split.
    - destruct fl; cbn [pkg_prefix forallb]; rewrite ?Hpkg; reflexivity.
    - apply forallb_forall, Forall_forall. exact Hl. }
  unfold gen_files in Hin. rewrite !in_app_iff in Hin.
  destruct Hin as [Hin | [Hin | [Hin | [Hin | Hin]]]].
  - unfold package_files in Hin. rewrite !in_app_iff in Hin.
    destruct Hin as [Hin | [Hin | Hin]].
    + destruct Hin as [<- | []]. apply Hc. repeat constructor.
    + destruct fl; [destruct Hin | ..]; (destruct Hin as [<- | []]; apply Hc; repeat constructor).
    + destruct Hin as [<- | []]. apply Hc. repeat constructor.
  - destruct (meta_single fl p Hin) as [f [-> Hf]].
    destruct Hf as [-> | [-> | [-> | ->]]]; reflexivity.
  - unfold model_files in Hin. apply in_app_or in Hin. destruct Hin as [Hin | Hin].
    + apply in_map_iff in Hin. destruct Hin as [m [<- Hm]].
      apply Hc. repeat constructor. apply safe_ext. rewrite forallb_forall in Hmod. now apply Hmod.
    + destruct Hin as [<- | []]. apply Hc. repeat constructor.
  - unfold client_files in Hin.
    destruct Hin as [<- | [<- | []]]; apply Hc; repeat constructor.
  - unfold api_files in Hin. destruct Hin as [<- | Hin]; [apply Hc; repeat constructor|].
    apply in_flat_map in Hin. destruct Hin as [te [Hte Hin]].
    rewrite forallb_forall in Htag. specialize (Htag te Hte).
    apply andb_true_iff in Htag. destruct Htag as [Ht1 Ht2].
    destruct Hin as [<- | Hin].
    + apply Hc. repeat constructor. exact Ht1.
    + apply in_map_iff in Hin. destruct Hin as [e [<- He]].
      apply Hc. repeat constructor; [exact Ht1|]. apply safe_ext. rewrite forallb_forall in Ht2. now apply Ht2.
Qed.

(* the hypotheses of overwrite_converges can be met: generation 2 removes a stale module of generation 1 *)
Example history_nonvacuous : exists h p,
  forallb (user_step_ok FPoetry [112]) h = true /\ managed FPoetry [112] p = true /\
  lookup_path (run FPoetry [112] h []) p = None /\ length h = 4%nat.
Proof.
  exists [ UserWrite [[112]; [120]] 7;
           Build 1 {| d_models := [[97]]; d_tags := [] |};
           UserWrite [[121]] 8;
           Build 2 {| d_models := []; d_tags := [] |} ].
  exists [[112]; d_models_dir; [97] ++ ext_py].
  repeat split; vm_compute; reflexivity.
Qed.

(* sanity: in the witness history the stale module really existed after the first generation *)
Example history_stale_existed :
  lookup_path (run FPoetry [112]
     [ UserWrite [[112]; [120]] 7; Build 1 {| d_models := [[97]]; d_tags := [] |} ] [])
     [[112]; d_models_dir; [97] ++ ext_py] = Some (Gen 1).
Proof. vm_compute. reflexivity. Qed.

Lemma path_char_facts x : path_char x = true -> x <> 0 /\ x <> 46 /\ x <> 47 /\ x <> 92.
Proof.
  unfold path_char. intro H. apply negb_true_iff in H.
  repeat split; intros ->; discriminate H.
Qed.

Lemma path_chars_safe s : forallb path_char s = true -> safe_chars s = true.
Proof.
  unfold safe_chars. intro H. apply forallb_forall. intros x Hx.
  rewrite forallb_forall in H. destruct (path_char_facts x (H _ Hx)) as (H0 & _ & H47 & H92).
  apply negb_true_iff. apply orb_false_iff. split; [apply orb_false_iff; split|]; now apply N.eqb_neq.
Qed.

Theorem derived_component_safe value prefix :
  good_prefix prefix = true -> forallb path_char prefix = true ->
  safe_component (python_identifier value prefix false) = true.
Proof.
  intros Hg Hp.
  pose proof (python_identifier_path_chars value prefix Hp) as Hc.
  pose proof (python_identifier_nonempty value prefix Hg) as Hne.
  set (r := python_identifier value prefix false) in *.
  assert (Hno46 : ~ In 46 r).
  { intro Hx. rewrite forallb_forall in Hc. now destruct (path_char_facts 46 (Hc _ Hx)) as (_ & H & _). }
  apply safe_component_intro; [exact Hne | | | now apply path_chars_safe];
    intro E; apply Hno46; rewrite E; now left.
Qed.

Theorem derived_module_safe value prefix :
  forallb path_char prefix = true -> safe_chars (python_identifier value prefix false) = true.
Proof. intro Hp. apply path_chars_safe, python_identifier_path_chars, Hp. Qed.

Print Assumptions no_overwrite_untouched.
Print Assumptions build_postcondition.
Print Assumptions overwrite_converges.
Print Assumptions user_files_untouched.
Print Assumptions writes_confined.
Print Assumptions history_nonvacuous.
