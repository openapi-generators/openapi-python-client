(* MapsThm.v — finite maps as key-sorted association lists (Codec.v: str_cmp, m_get, m_del, m_put, m_sorted, put_all). *)
From Coq Require Import NArith ZArith List Bool Lia.
Import ListNotations.
Require Import OPC.gen.GenKinds OPC.Uni OPC.Names OPC.NamesThm OPC.Codec.
Open Scope N_scope.

Lemma str_cmp_refl a : str_cmp a a = Eq.
Proof. induction a as [|x a IH]; simpl; [reflexivity|]. now rewrite N.compare_refl. Qed.

Lemma str_cmp_eq a : forall b, str_cmp a b = Eq <-> a = b.
Proof.
  induction a as [|x a IH]; intros [|y b]; simpl; split; intro H; try reflexivity; try discriminate.
  - destruct (N.compare x y) eqn:E; try discriminate. apply N.compare_eq_iff in E. apply IH in H. now subst.
  - injection H as -> ->. rewrite N.compare_refl. now apply IH.
Qed.

Lemma str_cmp_antisym a : forall b, str_cmp b a = CompOpp (str_cmp a b).
Proof.
  induction a as [|x a IH]; intros [|y b]; simpl; try reflexivity.
  rewrite (N.compare_antisym x y). destruct (N.compare x y); simpl; auto.
Qed.

Lemma str_cmp_gt_lt a b : str_cmp a b = Gt <-> str_cmp b a = Lt.
Proof. rewrite (str_cmp_antisym a b). destruct (str_cmp a b); simpl; split; congruence. Qed.

Lemma str_cmp_lt_trans a : forall b c, str_cmp a b = Lt -> str_cmp b c = Lt -> str_cmp a c = Lt.
Proof.
  induction a as [|x a IH]; intros [|y b] [|z c]; simpl; intros H1 H2; try discriminate; try reflexivity.
  destruct (N.compare x y) eqn:E1; try discriminate.
  - apply N.compare_eq_iff in E1. subst y. destruct (N.compare x z) eqn:E2; try discriminate; eauto.
  - destruct (N.compare y z) eqn:E2; try discriminate.
    + apply N.compare_eq_iff in E2. subst z. now rewrite E1.
    + rewrite N.compare_lt_iff in E1, E2. assert (E3: (x < z)) by lia. apply N.compare_lt_iff in E3. now rewrite E3.
Qed.

Lemma str_cmp_eqb a b : str_eqb a b = match str_cmp a b with Eq => true | _ => false end.
Proof.
  destruct (str_eqb_spec a b) as [->|Hne]; [now rewrite str_cmp_refl|].
  destruct (str_cmp a b) eqn:E; try reflexivity. now apply str_cmp_eq in E.
Qed.

Lemma str_cmp_neq a b : a <> b -> str_cmp a b <> Eq.
Proof. intros H E. apply str_cmp_eq in E. contradiction. Qed.

Section MapLemmas.
  Context {A : Type}.
  Implicit Types m : smap A.

  Definition hd_lt (k : str) (m : smap A) : Prop := match m with [] => True | (k', _) :: _ => str_cmp k k' = Lt end.

  Lemma m_sorted_cons k v m : m_sorted ((k, v) :: m) = true <-> hd_lt k m /\ m_sorted m = true.
  Proof.
    destruct m as [|[k' v'] m']; simpl.
    - tauto.
    - destruct (str_cmp k k'); split; try tauto; try (intro H; discriminate H); intros [H _]; discriminate H.
  Qed.

  (* keys not above the head key are absent from the tail *)
  Lemma hd_lt_get_none k k' m : hd_lt k m -> str_cmp k' k <> Gt -> m_get k' m = None.
  Proof.
    destruct m as [|[k2 v2] m']; simpl; [reflexivity|]. intros H1 H2.
    assert (E: str_cmp k' k2 = Lt).
    { destruct (str_cmp k' k) eqn:E; [apply str_cmp_eq in E; now subst | eapply str_cmp_lt_trans; eauto | congruence]. }
    now rewrite E.
  Qed.

  Lemma m_get_put k k' v m : m_get k' (m_put k v m) = if str_eqb k' k then Some v else m_get k' m.
  Proof.
    rewrite str_cmp_eqb. induction m as [|[k0 v0] m IH]; simpl.
    - now destruct (str_cmp k' k).
    - destruct (str_cmp k k0) eqn:E; simpl.
      + apply str_cmp_eq in E. subst k0. now destruct (str_cmp k' k).
      + destruct (str_cmp k' k) eqn:E2; try reflexivity. now rewrite (str_cmp_lt_trans _ _ _ E2 E).
      + apply str_cmp_gt_lt in E. rewrite IH. destruct (str_cmp k' k0) eqn:E3; try reflexivity.
        * apply str_cmp_eq in E3. subst k'. now rewrite E.
        * now rewrite (str_cmp_lt_trans _ _ _ E3 E).
  Qed.

  Lemma m_get_put_same k v m : m_get k (m_put k v m) = Some v.
  Proof. now rewrite m_get_put, str_eqb_refl. Qed.

  Lemma m_get_put_other k k' v m : k <> k' -> m_get k' (m_put k v m) = m_get k' m.
  Proof. intro H. rewrite m_get_put, str_eqb_neq; congruence. Qed.

  Lemma m_get_del k k' m : m_sorted m = true -> m_get k' (m_del k m) = if str_eqb k' k then None else m_get k' m.
  Proof.
    rewrite str_cmp_eqb. induction m as [|[k0 v0] m IH]; intro Hs; [now destruct (str_cmp k' k)|].
    apply m_sorted_cons in Hs as [Hh Hs]. simpl. destruct (str_cmp k k0) eqn:E; simpl.
    - apply str_cmp_eq in E. subst k0. destruct (str_cmp k' k) eqn:E2; try reflexivity; apply (hd_lt_get_none k); auto; congruence.
    - destruct (str_cmp k' k) eqn:E2; try reflexivity. apply str_cmp_eq in E2. subst k'. now rewrite E.
    - apply str_cmp_gt_lt in E. rewrite (IH Hs). destruct (str_cmp k' k0) eqn:E3; try reflexivity.
      + apply str_cmp_eq in E3. subst k'. now rewrite E.
      + now rewrite (str_cmp_lt_trans _ _ _ E3 E).
  Qed.

  Lemma m_get_del_same k m : m_sorted m = true -> m_get k (m_del k m) = None.
  Proof. intro Hs. now rewrite m_get_del, str_eqb_refl. Qed.

  Lemma m_get_del_other k k' m : k <> k' -> m_sorted m = true -> m_get k' (m_del k m) = m_get k' m.
  Proof. intros H Hs. rewrite m_get_del, str_eqb_neq; congruence. Qed.

  Lemma hd_lt_put k0 k v m : str_cmp k0 k = Lt -> hd_lt k0 m -> hd_lt k0 (m_put k v m).
  Proof. destruct m as [|[k1 v1] m]; simpl; auto. destruct (str_cmp k k1); simpl; auto. Qed.

  Lemma m_sorted_put k v m : m_sorted m = true -> m_sorted (m_put k v m) = true.
  Proof.
    induction m as [|[k0 v0] m IH]; [reflexivity|]. intro Hs.
    pose proof Hs as Hs0. apply m_sorted_cons in Hs as [Hh Hs]. simpl m_put.
    destruct (str_cmp k k0) eqn:E.
    - apply str_cmp_eq in E. subst k0. apply m_sorted_cons. auto.
    - apply m_sorted_cons. split; [exact E | exact Hs0].
    - apply m_sorted_cons. split; [|auto]. apply hd_lt_put; auto. now apply str_cmp_gt_lt.
  Qed.

  Lemma hd_lt_del k0 k m : hd_lt k0 m -> m_sorted m = true -> hd_lt k0 (m_del k m).
  Proof.
    destruct m as [|[k1 v1] m]; [simpl; auto|]. intros H1 Hs. apply m_sorted_cons in Hs as [Hh Hs].
    simpl in H1 |- *. destruct (str_cmp k k1); simpl; auto.
    destruct m as [|[k2 v2] m]; simpl in *; auto. eapply str_cmp_lt_trans; eauto.
  Qed.

  Lemma m_sorted_del k m : m_sorted m = true -> m_sorted (m_del k m) = true.
  Proof.
    induction m as [|[k0 v0] m IH]; [reflexivity|]. intro Hs.
    pose proof Hs as Hs0. apply m_sorted_cons in Hs as [Hh Hs]. simpl m_del.
    destruct (str_cmp k k0) eqn:E; auto.
    apply m_sorted_cons. split; auto. apply hd_lt_del; auto.
  Qed.

  Lemma m_put_del k v m : m_sorted m = true -> m_get k m = Some v -> m_put k v (m_del k m) = m.
  Proof.
    induction m as [|[k0 v0] m IH]; [discriminate|]. intros Hs Hg.
    apply m_sorted_cons in Hs as [Hh Hs]. simpl in Hg |- *.
    destruct (str_cmp k k0) eqn:E; try discriminate.
    - apply str_cmp_eq in E. subst k0. injection Hg as ->.
      destruct m as [|[k1 v1] m]; simpl in *; [reflexivity|]. now rewrite Hh.
    - simpl. rewrite E. f_equal. auto.
  Qed.

  Lemma m_del_absent k m : m_get k m = None -> m_del k m = m.
  Proof.
    induction m as [|[k0 v0] m IH]; simpl; [reflexivity|].
    destruct (str_cmp k k0); try discriminate; auto. intro H. f_equal. auto.
  Qed.

  Lemma m_get_In k v m : m_get k m = Some v -> In (k, v) m.
  Proof.
    induction m as [|[k0 v0] m IH]; simpl; [discriminate|].
    destruct (str_cmp k k0) eqn:E; try discriminate.
    - apply str_cmp_eq in E. subst. intro H. injection H as ->. now left.
    - auto.
  Qed.

  Lemma m_del_In x k m : In x (m_del k m) -> In x m.
  Proof.
    induction m as [|[k0 v0] m IH]; simpl; auto.
    destruct (str_cmp k k0); simpl; auto. intros [H|H]; auto.
  Qed.

  (* a sorted map is determined by its lookup function *)
  Lemma m_ext m1 : forall m2, m_sorted m1 = true -> m_sorted m2 = true ->
    (forall k, m_get k m1 = m_get k m2) -> m1 = m2.
  Proof.
    induction m1 as [|[k1 v1] m1 IH]; intros [|[k2 v2] m2] Hs1 Hs2 He; auto.
    - specialize (He k2). simpl in He. rewrite str_cmp_refl in He. discriminate.
    - specialize (He k1). simpl in He. rewrite str_cmp_refl in He. discriminate.
    - apply m_sorted_cons in Hs1 as [Hh1 Hs1]. apply m_sorted_cons in Hs2 as [Hh2 Hs2].
      destruct (str_cmp k1 k2) eqn:E.
      + apply str_cmp_eq in E. subst k2.
        pose proof (He k1) as H1. simpl in H1. rewrite str_cmp_refl in H1. injection H1 as ->.
        f_equal. apply IH; auto. intro k. specialize (He k). simpl in He.
        destruct (str_cmp k k1) eqn:E2; auto; rewrite (hd_lt_get_none k1 k m1), (hd_lt_get_none k1 k m2); auto; congruence.
      + specialize (He k1). simpl in He. rewrite str_cmp_refl, E in He. discriminate.
      + specialize (He k2). simpl in He. rewrite str_cmp_refl in He. apply str_cmp_gt_lt in E. rewrite E in He. discriminate.
  Qed.

  Lemma m_put_comm k1 v1 k2 v2 m : k1 <> k2 -> m_sorted m = true ->
    m_put k1 v1 (m_put k2 v2 m) = m_put k2 v2 (m_put k1 v1 m).
  Proof.
    intros Hne Hs. apply m_ext; try (repeat apply m_sorted_put; exact Hs).
    intro k. rewrite !m_get_put. destruct (str_eqb_spec k k1) as [->|_]; [|reflexivity].
    now rewrite (str_eqb_neq k1 k2 Hne).
  Qed.

  (* what a lookup in an updated map can return (no sortedness needed) *)
  Lemma m_get_put_inv k v k' x m : m_get k' (m_put k v m) = Some x -> k' = k \/ m_get k' m = Some x.
  Proof. rewrite m_get_put. destruct (str_eqb_spec k' k); auto. Qed.
End MapLemmas.

Lemma put_all_sorted kvs : forall m, m_sorted m = true -> m_sorted (put_all kvs m) = true.
Proof. induction kvs as [|[k v] r IH]; simpl; auto. intros m H. apply IH. now apply m_sorted_put. Qed.

Lemma put_all_get kvs : forall m key, m_sorted kvs = true ->
  m_get key (put_all kvs m) = match m_get key kvs with Some x => Some x | None => m_get key m end.
Proof.
  induction kvs as [|[k v] kvs IH]; intros m key Hs; simpl; [reflexivity|].
  apply m_sorted_cons in Hs as [Hh Hs]. rewrite IH, m_get_put, str_cmp_eqb by exact Hs.
  destruct (str_cmp key k) eqn:E.
  - apply str_cmp_eq in E. subst key. rewrite (hd_lt_get_none k k kvs); auto. rewrite str_cmp_refl. discriminate.
  - rewrite (hd_lt_get_none k key kvs); auto. congruence.
  - reflexivity.
Qed.

Lemma put_all_self m : m_sorted m = true -> put_all m [] = m.
Proof.
  intro Hs. apply m_ext; auto.
  - now apply put_all_sorted.
  - intro k. rewrite put_all_get by exact Hs. destruct (m_get k m); reflexivity.
Qed.

Lemma put_all_comm kvs : forall n j m, ~ In n (map fst kvs) -> m_sorted m = true ->
  put_all kvs (m_put n j m) = m_put n j (put_all kvs m).
Proof.
  induction kvs as [|[k v] r IH]; intros n j m Hn Hs; simpl; [reflexivity|].
  simpl in Hn. rewrite m_put_comm; auto. apply IH; auto. now apply m_sorted_put.
Qed.

Lemma put_all_get_inv kvs : forall m key x, m_get key (put_all kvs m) = Some x ->
  In key (map fst kvs) \/ m_get key m = Some x.
Proof.
  induction kvs as [|[k v] r IH]; intros m key x H; simpl in *; auto.
  apply IH in H as [H|H]; auto. apply m_get_put_inv in H as [H|H]; auto.
Qed.
