(* Signature.v — the parameter list of every generated endpoint function (templates/endpoint_macros.py.jinja, macro `arguments`):
   path parameters are POSITIONAL (those without a default first, then those with one - each group in path order),
   then a bare `*` when anything follows, then keyword-only: client, body,
   query, header and cookie parameters. Python accepts such a definition iff
     (a) no positional parameter without a default follows one with a default,
     (b) a bare `*` is followed by at least one parameter,
     (c) all parameter names are distinct.
   Keyword-only parameters may mix defaults freely: that is what the `*` is for.
   Tied to the code by the correspondence of harness/props/c01.py (ast of every generated def vs sig_of). *)
From Coq Require Import NArith Arith List Bool.
Import ListNotations.
Require Import OPC.Uni.
Open Scope N_scope.

Record sparam := { sp_name : str; sp_default : bool }.      (* Property.to_string: `= default` iff a schema default exists or the parameter is optional *)
Record espec := { e_path : list sparam; e_body : bool; e_rest : list sparam }.   (* rest = query ++ header ++ cookie *)
Record pysig := { positional : list sparam; star : bool; kwonly : list sparam }.

Definition s_client : str := [99;108;105;101;110;116].
Definition s_body : str := [98;111;100;121].

Definition sig_of (e : espec) (include_client : bool) : pysig :=
  {| positional := filter (fun p => negb (sp_default p)) (e_path e) ++ filter sp_default (e_path e);
     star := include_client || Nat.ltb (length (e_path e)) (length (e_path e) + length (e_rest e) + (if e_body e then 1 else 0))%nat;
     kwonly := (if include_client then [{| sp_name := s_client; sp_default := false |}] else [])
               ++ (if e_body e then [{| sp_name := s_body; sp_default := false |}] else []) ++ e_rest e |}.

(* (a) *)
Fixpoint defaults_monotone (seen : bool) (ps : list sparam) : bool :=
  match ps with
  | [] => true
  | p :: r => if sp_default p then defaults_monotone true r else negb seen && defaults_monotone false r
  end.
Fixpoint distinct (l : list str) : bool := match l with [] => true | x :: r => negb (mem_str x r) && distinct r end.

(* what CPython's grammar demands of `def f(<positional>, [*,] <kwonly>)`; without the star everything is positional *)
Definition py_valid (s : pysig) : bool :=
  (if star s then defaults_monotone false (positional s) && negb (Nat.eqb (length (kwonly s)) 0)
   else defaults_monotone false (positional s ++ kwonly s))
  && distinct (map sp_name (positional s ++ kwonly s)).

Definition names_ok (e : espec) (include_client : bool) : bool := distinct (map sp_name (positional (sig_of e include_client) ++ kwonly (sig_of e include_client))).

Lemma ltb_add_r n m : Nat.ltb n (n + m) = negb (Nat.eqb m 0).
Proof. destruct m; [now rewrite Nat.add_0_r, Nat.ltb_irrefl|]. apply Nat.ltb_lt, Nat.lt_add_pos_r, Nat.lt_0_succ. Qed.

Lemma star_eq_kwonly : forall e b, star (sig_of e b) = negb (Nat.eqb (length (kwonly (sig_of e b))) 0).
Proof.
  intros e b. unfold sig_of; cbn [star kwonly]. destruct b; [reflexivity|]. cbn [orb app].
  rewrite <- Nat.add_assoc, ltb_add_r, app_length, (Nat.add_comm (length (e_rest e))). now destruct (e_body e).
Qed.

(* the star is emitted exactly when something follows it: never a bare `*`, never a keyword parameter made positional *)
Theorem star_exact : forall e b, star (sig_of e b) = true <-> kwonly (sig_of e b) <> [].
Proof.
  intros e b. rewrite star_eq_kwonly. destruct (kwonly (sig_of e b)) as [|x r]; cbn; split; intro H; try discriminate; try congruence; reflexivity.
Qed.

Lemma monotone_all_default : forall l seen, forallb sp_default l = true -> defaults_monotone seen l = true.
Proof.
  induction l as [|p r IH]; intros seen H; [reflexivity|].
  cbn [forallb] in H. apply andb_true_iff in H. destruct H as [Hp Hr]. cbn [defaults_monotone]. rewrite Hp. exact (IH true Hr).
Qed.
Lemma monotone_nodefault_prefix : forall l1 l2, forallb (fun p => negb (sp_default p)) l1 = true ->
  defaults_monotone false (l1 ++ l2) = defaults_monotone false l2.
Proof.
  induction l1 as [|p r IH]; intros l2 H; [reflexivity|].
  cbn [forallb] in H. apply andb_true_iff in H. destruct H as [Hp Hr]. apply negb_true_iff in Hp.
  cbn [app defaults_monotone]. rewrite Hp. cbn [negb andb]. exact (IH l2 Hr).
Qed.
Lemma filter_forallb : forall (A : Type) (f : A -> bool) l, forallb f (filter f l) = true.
Proof. induction l as [|x r IH]; [reflexivity|]. cbn [filter]. destruct (f x) eqn:E; [cbn [forallb]; rewrite E; exact IH | exact IH]. Qed.
Lemma positional_monotone : forall e b, defaults_monotone false (positional (sig_of e b)) = true.
Proof.
  intros e b. unfold sig_of; cbn [positional].
  rewrite monotone_nodefault_prefix by (apply filter_forallb with (f := fun p => negb (sp_default p))).
  apply monotone_all_default. apply filter_forallb.
Qed.

(* THE statement: for EVERY endpoint - whatever the defaults of its path, body, query, header and cookie parameters - the
   generated definition is accepted by Python as soon as the parameter names are distinct (C09/C18's business) *)
Theorem signature_valid : forall e b, py_valid (sig_of e b) = names_ok e b.
Proof.
  intros e b. unfold py_valid, names_ok. rewrite star_eq_kwonly.
  (* without keyword-only parameters there is no star, and the whole list is the positional one *)
  destruct (kwonly (sig_of e b)) as [|x r]; cbn [length Nat.eqb negb]; [rewrite app_nil_r|]; now rewrite positional_monotone.
Qed.

(* the positional parameters are the path parameters: same members (and, by positional_length below, as many) *)
Theorem positional_is_path_permuted : forall e b p, In p (positional (sig_of e b)) <-> In p (e_path e).
Proof.
  intros e b p. unfold sig_of; cbn [positional]. rewrite in_app_iff, !filter_In. split.
  - intros [[H _]|[H _]]; exact H.
  - intro H. destruct (sp_default p) eqn:E; [right|left]; split; auto.
Qed.
Theorem positional_length : forall e b, length (positional (sig_of e b)) = length (e_path e).
Proof.
  intros e b. unfold sig_of; cbn [positional]. rewrite app_length. induction (e_path e) as [|p r IH]; [reflexivity|].
  cbn [filter]. destruct (sp_default p); cbn [negb length Nat.add]; [rewrite Nat.add_succ_r|]; now rewrite IH.
Qed.

(* non-vacuity *)
Example signature_valid_example :
  py_valid (sig_of {| e_path := [{| sp_name := [97]; sp_default := false |}; {| sp_name := [98]; sp_default := true |}]; e_body := true;
                      e_rest := [{| sp_name := [113]; sp_default := true |}; {| sp_name := [114]; sp_default := false |}] |} false) = true.
Proof. vm_compute. reflexivity. Qed.

(* the grouping matters: emitted in path order (positional := e_path e) this arrangement is rejected by Python (the witness of the
   known finding path_default_before_required) *)
Theorem path_order_rule_refuted : exists ps, defaults_monotone false ps = false /\
  defaults_monotone false (filter (fun p => negb (sp_default p)) ps ++ filter sp_default ps) = true.
Proof.
  exists [{| sp_name := [97]; sp_default := true |}; {| sp_name := [98]; sp_default := false |}]. vm_compute. split; reflexivity.
Qed.

(* without the star a keyword parameter list with an optional-before-required pair would be rejected: the star matters *)
Theorem star_needed : exists e, py_valid (sig_of e false) = true /\
  py_valid {| positional := positional (sig_of e false); star := false; kwonly := kwonly (sig_of e false) |} = false.
Proof.
  exists {| e_path := []; e_body := false; e_rest := [{| sp_name := [111]; sp_default := true |}; {| sp_name := [114]; sp_default := false |}] |}.
  vm_compute. split; reflexivity.
Qed.

(* observation helper for the correspondence *)
Definition sparam_eqb (a b : sparam) : bool := str_eqb (sp_name a) (sp_name b) && Bool.eqb (sp_default a) (sp_default b).
Fixpoint sparams_eqb (a b : list sparam) : bool :=
  match a, b with [], [] => true | x :: r, y :: s => sparam_eqb x y && sparams_eqb r s | _, _ => false end.
Definition sig_eqb (a b : pysig) : bool := sparams_eqb (positional a) (positional b) && Bool.eqb (star a) (star b) && sparams_eqb (kwonly a) (kwonly b).
