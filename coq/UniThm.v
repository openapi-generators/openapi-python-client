(* UniThm.v — lemmas about the string and table primitives of Uni.v (str_eqb, mem_str, memN, is_prefix, lookup, map_preserves:
   soundness and extensionality), and the list facts the development needs beyond the standard library.  Everything that
   compares strings goes through str_eqb_spec / str_eqb_refl / str_eqb_neq. *)
From Coq Require Import NArith List Bool.
Import ListNotations.
Require Import OPC.Uni.
Open Scope N_scope.

Lemma str_eqb_eq a : forall b, str_eqb a b = true <-> a = b.
Proof.
  induction a as [|x a IH]; intros [|y b]; simpl; split; intro H; try reflexivity; try discriminate.
  - apply andb_true_iff in H as [H1 H2]. apply N.eqb_eq in H1. apply IH in H2. now subst.
  - injection H as -> ->. rewrite N.eqb_refl. simpl. now apply IH.
Qed.

Lemma str_eqb_spec a b : reflect (a = b) (str_eqb a b).
Proof. apply iff_reflect. symmetry. apply str_eqb_eq. Qed.

Lemma str_eqb_refl a : str_eqb a a = true.
Proof. now apply str_eqb_eq. Qed.

Lemma str_eqb_neq a b : a <> b -> str_eqb a b = false.
Proof. now destruct (str_eqb_spec a b). Qed.

Lemma str_eqb_false a b : str_eqb a b = false -> a <> b.
Proof. now destruct (str_eqb_spec a b). Qed.

Lemma str_eqb_sym a b : str_eqb a b = str_eqb b a.
Proof. destruct (str_eqb_spec a b) as [->|H]; [now rewrite str_eqb_refl | symmetry; apply str_eqb_neq; congruence]. Qed.

Lemma mem_str_In s l : mem_str s l = true <-> In s l.
Proof.
  unfold mem_str. rewrite existsb_exists. split.
  - intros [x [Hx He]]. apply str_eqb_eq in He. now subst.
  - intro H. exists s. split; [exact H | apply str_eqb_refl].
Qed.

Lemma mem_str_false s l : mem_str s l = false <-> ~ In s l.
Proof. rewrite <- mem_str_In. now destruct (mem_str s l). Qed.

Lemma memN_In c l : memN c l = true <-> In c l.
Proof.
  unfold memN. rewrite existsb_exists. split.
  - intros [x [Hx He]]. apply N.eqb_eq in He. now subst.
  - intro H. exists c. split; [exact H | apply N.eqb_refl].
Qed.

Lemma is_prefix_app p : forall x, is_prefix p (p ++ x) = true.
Proof. induction p as [|c p IH]; intro x; simpl; [reflexivity|]. now rewrite N.eqb_refl, IH. Qed.

Lemma lookup_In m c v : lookup m c = Some v -> In (c, v) m.
Proof.
  induction m as [|[k w] m IH]; simpl; [discriminate|].
  destruct (N.eqb_spec k c) as [->|Hne]; [intros [= <-]; now left | intro H; right; auto].
Qed.

(* a case map checked entry by entry sends P-characters to Q-strings, provided unmapped P-characters are Q themselves *)
Lemma map_preserves_sound P Q m :
  map_preserves P Q m = true -> (forall c, P c = true -> Q c = true) ->
  forall c, P c = true -> forallb Q (map_c m c) = true.
Proof.
  intros Hm Hid c Hc. unfold map_c. destruct (lookup m c) as [v|] eqn:E.
  - apply lookup_In in E. unfold map_preserves in Hm. rewrite forallb_forall in Hm.
    specialize (Hm _ E). simpl in Hm. now rewrite Hc in Hm.
  - simpl. now rewrite Hid.
Qed.

Lemma NoDup_snoc {A} (l : list A) x : NoDup l -> ~ In x l -> NoDup (l ++ [x]).
Proof.
  intros Hl Hx. apply NoDup_rev in Hl. rewrite <- (rev_involutive (l ++ [x])), rev_app_distr.
  apply NoDup_rev. constructor; [now rewrite <- in_rev | exact Hl].
Qed.

Lemma forallb_flat_map {A B} (p : B -> bool) (f : A -> list B) l :
  (forall a, In a l -> forallb p (f a) = true) -> forallb p (flat_map f l) = true.
Proof.
  induction l as [|a l IH]; intros H; [reflexivity|]. cbn [flat_map]. rewrite forallb_app, H, IH; auto using in_eq, in_cons.
Qed.

Lemma forallb_ext {A} (p q : A -> bool) l : (forall a, p a = q a) -> forallb p l = forallb q l.
Proof. intro H. induction l as [|a l IH]; cbn [forallb]; [reflexivity | now rewrite H, IH]. Qed.

Lemma existsb_ext {A} (p q : A -> bool) l : (forall a, p a = q a) -> existsb p l = existsb q l.
Proof. intro H. induction l as [|a l IH]; cbn [existsb]; [reflexivity | now rewrite H, IH]. Qed.

Lemma map_preserves_ext P P' Q Q' m :
  (forall c, P c = P' c) -> (forall c, Q c = Q' c) -> map_preserves P Q m = map_preserves P' Q' m.
Proof. intros HP HQ. apply forallb_ext. intros [k v]. cbn [fst snd]. now rewrite HP, (forallb_ext Q Q'). Qed.

Lemma forallb_impl {A} (f g : A -> bool) s : (forall c, f c = true -> g c = true) -> forallb f s = true -> forallb g s = true.
Proof. intros Hfg H. rewrite forallb_forall in *. auto. Qed.

Lemma forallb_flat_map_impl {A B} (f : A -> bool) (g : B -> bool) (h : A -> list B) s :
  (forall c, f c = true -> forallb g (h c) = true) -> forallb f s = true -> forallb g (flat_map h s) = true.
Proof. intros Hfg H. apply forallb_flat_map. intros c Hc. rewrite forallb_forall in H. auto. Qed.

Lemma filter_idem {A} (f : A -> bool) l : filter f (filter f l) = filter f l.
Proof.
  induction l as [|x l IH]; [reflexivity|]. cbn [filter]. destruct (f x) eqn:E; [|exact IH].
  cbn [filter]. now rewrite E, IH.
Qed.

Lemma NoDup_map_inj {A B} (f : A -> B) l : NoDup (map f l) -> forall a b, In a l -> In b l -> f a = f b -> a = b.
Proof.
  induction l as [|x l IH]; intros H a b Ha Hb E; [destruct Ha|].
  cbn [map] in H. inversion H as [|? ? Hn Hd]; subst.
  destruct Ha as [Ha|Ha]; destruct Hb as [Hb|Hb]; subst.
  - reflexivity.
  - exfalso. apply Hn. rewrite E. apply in_map. exact Hb.
  - exfalso. apply Hn. rewrite <- E. apply in_map. exact Ha.
  - apply IH; assumption.
Qed.

Lemma existsb_map {A B} (f : A -> B) p l : existsb p (map f l) = existsb (fun x => p (f x)) l.
Proof. induction l as [|x l IH]; [reflexivity|]. cbn [map existsb]. now rewrite IH. Qed.
