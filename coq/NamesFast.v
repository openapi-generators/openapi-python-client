(* NamesFast.v — the name derivation of Names.v evaluated through the search trees of UniFast.v.

   Every function of Names.v that reads a character class (sanitize, snake_case, pascal_case, class_name, python_identifier) is written once more over a record of abstract classes.  At the classes of Uni.v it IS the model's function
   (by unfolding), and it depends on the classes only through their values, so the tree-backed twins of UniFast.v give functions
   equal to the model's at every argument: foo_f_eq : foo_f x = foo x.  A closed name is evaluated by rewriting it to its twin first
   (`rewrite <- snake_case_f_eq. vm_compute.`): coqchk repeats every evaluation without the VM, and the model scans a table of
   ~700 ranges for every character. *)
From Coq Require Import NArith List Bool.
Import ListNotations.
Require Import OPC.gen.GenTables OPC.Uni OPC.UniFast OPC.UniThm OPC.Names.
Open Scope N_scope.

(* \w, isupper, islower, istitle, lower, title, XID_Start, XID_Continue, and the test of fix_reserved_words *)
Record classes := {
  W : N -> bool; U : N -> bool; LO : N -> bool; TI : N -> bool; L : N -> list N; T : N -> list N;
  XS : N -> bool; XC : N -> bool; R : str -> bool }.

Section With.
  Variable k : classes.

  Definition sanitize_with (s : str) : str := filter (fun c => W k c || is_delim c) s.
  Definition split_words_with (v : str) : list str :=
    if existsb (U k) v then flat_map case_split (runs v []) else runs v [].
  Definition cased_with (sep : str) (v : str) : str := flat_map (L k) (join sep (split_words_with (sanitize_with v))).
  Definition s_isupper_with (s : str) : bool := negb (existsb (fun c => LO k c || TI k c) s) && existsb (U k) s.
  Definition capitalize_with (w : str) : str := match w with [] => [] | c :: r => T k c ++ flat_map (L k) r end.
  Definition pascal_case_with (v : str) : str :=
    flat_map (fun w => if s_isupper_with w then w else capitalize_with w) (split_words_with (sanitize_with v)).
  Definition fix_reserved_with (s : str) : str := if R k s then s ++ [95] else s.
  Definition is_identifier_with (s : str) : bool :=
    match s with [] => false | c :: s' => XS k c && forallb (XC k) s' end.
  Definition python_identifier_with (value prefix : str) (skip_snake : bool) : str :=
    let v1 := sanitize_with value in
    let v2 := if skip_snake then v1 else cased_with [95] v1 in
    let v3 := fix_reserved_with v2 in
    if negb (is_identifier_with v3) || starts_us value then prefix ++ v3 else v3.
  Definition class_name_with (value prefix : str) : str :=
    let n1 := fix_reserved_with (pascal_case_with (sanitize_with value)) in
    if negb (is_identifier_with n1) then fix_reserved_with (pascal_case_with (sanitize_with (prefix ++ n1))) else n1.
End With.

Definition agree (a b : classes) : Prop :=
  (forall c, W a c = W b c) /\ (forall c, U a c = U b c) /\ (forall c, LO a c = LO b c) /\ (forall c, TI a c = TI b c) /\
  (forall c, L a c = L b c) /\ (forall c, T a c = T b c) /\ (forall c, XS a c = XS b c) /\ (forall c, XC a c = XC b c) /\
  (forall s, R a s = R b s).

Section Ext.
  Variables a b : classes.
  Hypothesis H : agree a b.

  Lemma sanitize_ext s : sanitize_with a s = sanitize_with b s.
  Proof. apply filter_ext. intro c. now rewrite (proj1 H). Qed.
  Lemma split_words_ext v : split_words_with a v = split_words_with b v.
  Proof. unfold split_words_with. now rewrite (existsb_ext _ _ v (proj1 (proj2 H))). Qed.
  Lemma lower_ext s : flat_map (L a) s = flat_map (L b) s.
  Proof. apply flat_map_ext, H. Qed.
  Lemma cased_ext sep v : cased_with a sep v = cased_with b sep v.
  Proof. unfold cased_with. now rewrite sanitize_ext, split_words_ext, lower_ext. Qed.
  Lemma s_isupper_ext s : s_isupper_with a s = s_isupper_with b s.
  Proof.
    destruct H as (_ & HU & HLO & HTI & _). unfold s_isupper_with.
    rewrite (existsb_ext _ _ s HU). f_equal. f_equal. apply existsb_ext. intro c. now rewrite HLO, HTI.
  Qed.
  Lemma pascal_case_ext v : pascal_case_with a v = pascal_case_with b v.
  Proof.
    unfold pascal_case_with. rewrite sanitize_ext, split_words_ext. apply flat_map_ext. intro w.
    rewrite s_isupper_ext. destruct (s_isupper_with b w); [reflexivity|].
    destruct w as [|c r]; [reflexivity|]. cbn [capitalize_with]. now rewrite lower_ext, (proj1 (proj2 (proj2 (proj2 (proj2 (proj2 H)))))).
  Qed.
  Lemma fix_reserved_ext s : fix_reserved_with a s = fix_reserved_with b s.
  Proof. unfold fix_reserved_with. now rewrite (proj2 (proj2 (proj2 (proj2 (proj2 (proj2 (proj2 (proj2 H)))))))). Qed.
  Lemma is_identifier_ext s : is_identifier_with a s = is_identifier_with b s.
  Proof.
    destruct H as (_ & _ & _ & _ & _ & _ & HXS & HXC & _). destruct s as [|c s]; [reflexivity|].
    cbn [is_identifier_with]. now rewrite HXS, (forallb_ext _ _ s HXC).
  Qed.
  Lemma python_identifier_ext value prefix skip :
    python_identifier_with a value prefix skip = python_identifier_with b value prefix skip.
  Proof. unfold python_identifier_with. now rewrite sanitize_ext, cased_ext, fix_reserved_ext, is_identifier_ext. Qed.
  Lemma class_name_ext value prefix : class_name_with a value prefix = class_name_with b value prefix.
  Proof. unfold class_name_with. now rewrite !sanitize_ext, !pascal_case_ext, !fix_reserved_ext, is_identifier_ext. Qed.
End Ext.

Definition reserved_idx := word_index reserved_words.
Definition keywords_idx := word_index keywords.

Definition std : classes :=
  {| W := is_word; U := c_isupper; LO := c_islower; TI := c_istitle; L := lower_c; T := title_c; XS := xid_start; XC := xid_continue;
     R := fun s => mem_str s reserved_words || mem_str s keywords |}.
Definition fast : classes :=
  {| W := is_word_f; U := c_isupper_f; LO := c_islower_f; TI := c_istitle_f; L := lower_f; T := title_f;
     XS := xid_start_f; XC := xid_continue_f;
     R := fun s => mem_str_f reserved_words reserved_idx s || mem_str_f keywords keywords_idx s |}.

Lemma fast_std : agree fast std.
Proof.
  repeat split; cbn [W U LO TI L T XS XC R fast std].
  - exact is_word_f_eq.
  - exact c_isupper_f_eq.
  - exact c_islower_f_eq.
  - exact c_istitle_f_eq.
  - exact lower_f_eq.
  - exact title_f_eq.
  - exact xid_start_f_eq.
  - exact xid_continue_f_eq.
  - intro s. unfold reserved_idx, keywords_idx. now rewrite !mem_str_f_eq.
Qed.

(* at the classes of Uni.v the functions above are the model's; stated piecewise, each by unfolding, because the kernel compares the
   nested lets of python_identifier / class_name very slowly when the two sides differ by the record projections *)
Lemma sanitize_std s : sanitize_with std s = sanitize s.                  Proof. reflexivity. Qed.
Lemma cased_std sep v : cased_with std sep v = lower (join sep (split_words (sanitize v))).  Proof. reflexivity. Qed.
Lemma pascal_case_std v : pascal_case_with std v = pascal_case v.          Proof. reflexivity. Qed.
Lemma fix_reserved_std s : fix_reserved_with std s = fix_reserved s.       Proof. reflexivity. Qed.
Lemma is_identifier_std s : is_identifier_with std s = is_identifier s.    Proof. reflexivity. Qed.
Lemma python_identifier_std value prefix skip : python_identifier_with std value prefix skip = python_identifier value prefix skip.
Proof.
  unfold python_identifier_with, python_identifier, snake_case.
  now rewrite sanitize_std, cased_std, fix_reserved_std, is_identifier_std.
Qed.
Lemma class_name_std value prefix : class_name_with std value prefix = class_name value prefix.
Proof. unfold class_name_with, class_name. now rewrite !sanitize_std, !pascal_case_std, !fix_reserved_std, is_identifier_std. Qed.

Definition sanitize_f := sanitize_with fast.
Definition snake_case_f := cased_with fast [95].
Definition pascal_case_f := pascal_case_with fast.
Definition class_name_f := class_name_with fast.
Definition python_identifier_f (value prefix : str) : str := python_identifier_with fast value prefix false.
Definition python_identifier_raw_f (value prefix : str) : str := python_identifier_with fast value prefix true.

Lemma sanitize_f_eq s : sanitize_f s = sanitize s.
Proof. exact (sanitize_ext fast std fast_std s). Qed.
Lemma snake_case_f_eq v : snake_case_f v = snake_case v.
Proof. unfold snake_case_f, snake_case. now rewrite (cased_ext fast std fast_std), cased_std. Qed.
Lemma pascal_case_f_eq v : pascal_case_f v = pascal_case v.
Proof. unfold pascal_case_f. now rewrite (pascal_case_ext fast std fast_std), pascal_case_std. Qed.
Lemma class_name_f_eq value prefix : class_name_f value prefix = class_name value prefix.
Proof. unfold class_name_f. now rewrite (class_name_ext fast std fast_std), class_name_std. Qed.
Theorem python_identifier_f_eq value prefix : python_identifier_f value prefix = python_identifier value prefix false.
Proof. unfold python_identifier_f. now rewrite (python_identifier_ext fast std fast_std), python_identifier_std. Qed.
Lemma python_identifier_raw_f_eq value prefix : python_identifier_raw_f value prefix = python_identifier value prefix true.
Proof. unfold python_identifier_raw_f. now rewrite (python_identifier_ext fast std fast_std), python_identifier_std. Qed.
