(* EnumsThm2.v — C14: two enums that derive ONE class name. Uses the model Scopes.model_decls of EnumProperty.build's
   same-class-name handling and its invariant from ScopesThm.v: an enum declaration that is not reported holds, under its class name,
   exactly its own declared value table. *)
From Coq Require Import NArith ZArith PeanoNat List Bool Lia.
Import ListNotations.
Require Import OPC.gen.GenTables OPC.Uni OPC.Names OPC.NamesThm OPC.NamesFast OPC.Values OPC.ValuesThm OPC.Enums OPC.EnumsThm OPC.Scopes OPC.ScopesThm.
Open Scope N_scope.

(* the class entry found under an unreported enum declaration's class name is an enum table equivalent to the declaration's own *)
Theorem unreported_enum_own_table : forall prefix ds tab errs p n vs,
  model_decls prefix ds = Some (tab, errs) -> In (DEnum p n vs) ds -> ~ In (DEnum p n vs) errs ->
  exists t t', values_from_list vs = Some t /\ clookup (decl_class prefix (DEnum p n vs)) tab = Some (CEnum t') /\
               NoDup (map fst t') /\ tbl_equiv t t'.
Proof.
  intros prefix ds tab errs p n vs H Hin Hne.
  destruct (model_decls_inv_g values_from_list values_from_list_keys_nodup _ _ _ _ H) as (I1 & I2 & I3 & I4 & I5).
  specialize (I3 _ Hin Hne). unfold entry_matches_g in I3. cbn [decl_table_g] in I3.
  destruct (values_from_list vs) as [t|] eqn:Ev.
  - destruct I3 as (t' & Hl & Heq). exists t, t'. split; [reflexivity|]. split; [exact Hl|]. split; [|exact Heq].
    destruct (I2 _ _ Hl) as (d' & _ & _ & Ht'). destruct d' as [m|p' n' vs']; [discriminate Ht'|].
    apply (values_from_list_keys_nodup _ _ Ht').
  - exfalso. apply (I5 _ _ _ Hin). exact Ev.
Qed.

(* ... hence, under the guard of vfl_exact, the shared class holds exactly the (member name, stored value) pairs of THIS declaration's
   own value list: a twin with the same member names and other wire values cannot have been merged into it *)
Theorem unreported_enum_class_exact : forall prefix ds tab errs p n vs,
  model_decls prefix ds = Some (tab, errs) -> In (DEnum p n vs) ds -> ~ In (DEnum p n vs) errs ->
  g_enum_sanitised_distinct vs = true ->
  exists t', clookup (decl_class prefix (DEnum p n vs)) tab = Some (CEnum t') /\
             forall q, In q t' <-> In q (entries_from 0 vs).
Proof.
  intros prefix ds tab errs p n vs H Hin Hne Hg.
  destruct (unreported_enum_own_table _ _ _ _ _ _ _ H Hin Hne) as (t & t' & Hv & Hl & Hn' & Heq).
  exists t'. split; [exact Hl|]. intros [k v].
  rewrite <- (tbl_equiv_In t t' (values_from_list_keys_nodup _ _ Hv) Hn' Heq k v).
  apply (vfl_exact vs t (key_functional_b_sound _ Hg) Hv).
Qed.

(* two unreported enum declarations with one class name list the same wire values under the same member names *)
Theorem twins_share_only_equal_tables : forall prefix ds tab errs p1 n1 vs1 p2 n2 vs2,
  model_decls prefix ds = Some (tab, errs) ->
  In (DEnum p1 n1 vs1) ds -> In (DEnum p2 n2 vs2) ds -> ~ In (DEnum p1 n1 vs1) errs -> ~ In (DEnum p2 n2 vs2) errs ->
  decl_class prefix (DEnum p1 n1 vs1) = decl_class prefix (DEnum p2 n2 vs2) ->
  g_enum_sanitised_distinct vs1 = true -> g_enum_sanitised_distinct vs2 = true ->
  forall q, In q (entries_from 0 vs1) <-> In q (entries_from 0 vs2).
Proof.
  intros prefix ds tab errs p1 n1 vs1 p2 n2 vs2 H H1 H2 E1 E2 Hc G1 G2 q.
  destruct (unreported_enum_class_exact _ _ _ _ _ _ _ H H1 E1 G1) as (t1 & L1 & X1).
  destruct (unreported_enum_class_exact _ _ _ _ _ _ _ H H2 E2 G2) as (t2 & L2 & X2).
  rewrite Hc in L1. rewrite L1 in L2. injection L2 as <-. rewrite <- X1. apply X2.
Qed.

(* decl_class over the search trees of NamesFast, to evaluate the witness *)
Definition decl_class_f (prefix : str) (d : cdecl) : str :=
  match d with
  | DModel n | DEnum [] n _ => class_name_f (last_seg n []) prefix
  | DEnum p n _ => class_name_f (last_seg (pascal_case_f p ++ pascal_case_f n) []) prefix
  end.

Lemma decl_class_f_eq prefix d : decl_class_f prefix d = decl_class prefix d.
Proof.
  destruct d as [n|[|c p] n vs]; unfold decl_class_f, decl_class, class_of; now rewrite ?class_name_f_eq, ?pascal_case_f_eq.
Qed.

(* Order.item_status = [open, closed] and OrderItem.status = [OPEN, CLOSED] derive one class name: the model reports the second *)
Example twin_case_reported :
  exists tab d, model_decls [102;105;101;108;100;95]
    [DEnum [79;114;100;101;114] [105;116;101;109;95;115;116;97;116;117;115] [EStr [111;112;101;110]; EStr [99;108;111;115;101;100]];
     DEnum [79;114;100;101;114;73;116;101;109] [115;116;97;116;117;115] [EStr [79;80;69;78]; EStr [67;76;79;83;69;68]]] = Some (tab, [d]).
Proof.
  eexists. eexists. unfold model_decls. cbn [add_decls add_decl]. do 2 rewrite <- decl_class_f_eq. vm_compute. reflexivity.
Qed.

Print Assumptions unreported_enum_own_table.
Print Assumptions unreported_enum_class_exact.
Print Assumptions twins_share_only_equal_tables.


Lemma enum_text_value cls k v : enum_value cls k = Some v -> enum_text cls k = value_text v.
Proof. unfold enum_text. now intros ->. Qed.

(* string enums: the member a listed value decodes to stringifies to exactly that value *)
Theorem enum_text_str : forall vs m,
  forallb ev_is_str vs = true -> g_no_bs_nl vs = true -> g_enum_sanitised_distinct vs = true -> g_member_names vs = true ->
  values_from_list vs = Some m ->
  exists cls, str_enum_class m = Some cls /\
    (forall s, In (EStr s) vs -> exists k, enum_decode cls (JStr s) = DMember k /\ enum_text cls k = Some s) /\
    (forall j k, enum_lookup cls j = Some k -> exists s, In (EStr s) vs /\ enum_text cls k = Some s).
Proof.
  intros vs m H1 H2 H3 H4 Hm.
  destruct (enum_exact_str vs m H1 H2 H3 H4 Hm) as (cls & Hc & Hl & Hs & _ & _).
  exists cls. split; [exact Hc|]. split.
  - intros s Hin. destruct (Hl s Hin) as (k & Hd & Hv). exists k. split; [exact Hd | exact (enum_text_value _ _ _ Hv)].
  - intros j k Hk. destruct (Hs j k Hk) as (s & _ & Hin & Hv). exists s. split; [exact Hin | exact (enum_text_value _ _ _ Hv)].
Qed.

(* integer enums: the member of z stringifies to the decimal text of z *)
Theorem enum_text_int : forall vs m,
  forallb ev_is_int vs = true -> values_from_list vs = Some m ->
  exists cls, int_enum_class m = Some cls /\
    (forall z, In (EInt z) vs -> exists k, enum_decode cls (JInt z) = DMember k /\ enum_text cls k = Some (dec_Z z)).
Proof.
  intros vs m H1 Hm. destruct (enum_exact_int vs m H1 Hm) as (cls & Hc & Hl & _).
  exists cls. split; [exact Hc|]. intros z Hin. destruct (Hl z Hin) as (k & Hd & Hv). exists k. split; [exact Hd | exact (enum_text_value _ _ _ Hv)].
Qed.

Print Assumptions enum_text_str.
Print Assumptions enum_text_int.
