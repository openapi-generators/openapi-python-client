(* SitesThm.v — proofs about Sites.v (C05): every acceptable site re-lexes to data under its slot guard. *)
From Coq Require Import String Ascii NArith List Bool Lia Wf_nat.
Import ListNotations.
Require Import OPC.gen.GenTables OPC.Uni OPC.UniFast OPC.Names OPC.NamesThm OPC.PyLit OPC.PyLitThm OPC.Sites OPC.gen.GenSites.
Open Scope N_scope.


Definition prepend (v : str) (o : option (str * str)) : option (str * str) :=
  match o with Some (v', r) => Some (v ++ v', r) | None => None end.

Lemma prepend_nil o : prepend [] o = o.
Proof. destruct o as [[? ?]|]; reflexivity. Qed.

Lemma prepend_app v w o : prepend v (prepend w o) = prepend (v ++ w) o.
Proof. destruct o as [[? ?]|]; [cbn [prepend]; now rewrite app_assoc | reflexivity]. Qed.

(* a token t: one character, or a backslash and the character after it *)
Lemma lex_body_step q c s : c <> q -> lex_body q (c :: s) <> None ->
  exists t w s', c :: s = t ++ s' /\ (length s' <= length s)%nat /\ forall k, lex_body q (t ++ k) = prepend w (lex_body q k).
Proof.
  intros Hq H. apply N.eqb_neq in Hq. rewrite lex_body_unfold, Hq in H.
  destruct ((c =? NL) || (c =? CR) || (c =? 0)) eqn:Ebad; [easy|].
  destruct (c =? BS) eqn:Eb.
  - destruct s as [|e s]; [easy|]. destruct (unmodelled_escape e) eqn:Eu; [easy|].
    destruct (simple_escape e) as [x|] eqn:Es; [exists [c; e], [x], s | exists [c; e], [BS; e], s];
      (split; [reflexivity|]); (split; [cbn [length]; lia|]); intros k; cbn [app];
      now rewrite (lex_body_unfold q (c :: _)), Hq, Ebad, Eb, Eu, Es.
  - exists [c], [c], s. split; [reflexivity|]. split; [lia|]. intros k. cbn [app].
    now rewrite (lex_body_unfold q (c :: _)), Hq, Ebad, Eb.
Qed.

Lemma lex_body_split q s : forall v r, lex_body q s = Some (v, r) ->
  exists a, s = a ++ q :: r /\ forall k, lex_body q (a ++ k) = prepend v (lex_body q k).
Proof.
  induction s as [s IH] using (induction_ltof1 _ (@length N)). unfold ltof in IH. intros v r H.
  destruct s as [|c s]; [discriminate H|]. destruct (N.eq_dec c q) as [->|Hq].
  - rewrite lex_body_close in H. injection H as <- <-. exists []. split; [reflexivity|].
    intros k. now rewrite prepend_nil.
  - destruct (lex_body_step q c s Hq) as (t & w & s' & Es & Hl & Ht); [congruence|].
    rewrite Es, Ht in H. destruct (lex_body q s') as [[v' r']|] eqn:E; [|discriminate H]. injection H as <- <-.
    destruct (IH s' ltac:(cbn [length]; lia) v' r' E) as (a & -> & Ha).
    exists (t ++ a). split; [now rewrite Es, app_assoc|].
    intros k. now rewrite <- app_assoc, Ht, Ha, prepend_app.
Qed.

Lemma lex_body_compose q a v k :
  lex_body q (a ++ [q]) = Some (v, []) -> lex_body q (a ++ k) = prepend v (lex_body q k).
Proof. intros H. destruct (lex_body_split q _ _ _ H) as (a' & E & Ha). apply app_inj_tail in E as [-> _]. apply Ha. Qed.

Lemma lex_body_extend q s v r k :
  lex_body q s = Some (v, r) -> lex_body q (s ++ k) = Some (v, r ++ k).
Proof.
  intros H. destruct (lex_body_split q _ _ _ H) as (a & -> & Ha).
  rewrite <- app_assoc. cbn [app]. rewrite Ha, lex_body_close. cbn [prepend]. now rewrite app_nil_r.
Qed.

Lemma plainc_spec q c : plainc q c = true -> c <> q /\ c <> NL /\ c <> CR /\ c <> 0 /\ c <> BS.
Proof.
  unfold plainc. intros H. apply negb_true_iff in H.
  repeat (apply orb_false_iff in H; destruct H as [H ?]).
  repeat split; apply N.eqb_neq; assumption.
Qed.

Lemma lex_body_plain_self q : forall a, plain q a = true -> lex_body q (a ++ [q]) = Some (a, []).
Proof.
  induction a as [|c a IH]; intros H.
  - apply lex_body_close.
  - cbn [plain forallb] in H. apply andb_prop in H as [Hc Ha].
    apply plainc_spec in Hc as (H1 & H2 & H3 & H4 & H5).
    cbn [app]. rewrite lex_body_plain by assumption. rewrite (IH Ha). reflexivity.
Qed.

Lemma lex_body_plain_app q a k : plain q a = true -> lex_body q (a ++ k) = prepend a (lex_body q k).
Proof. intros H. apply lex_body_compose, lex_body_plain_self, H. Qed.

Lemma plain_lit_value q s : plain q s = true -> lit_value q s = Some s.
Proof. intros H. unfold lit_value. now rewrite (lex_body_plain_self q s H). Qed.

Lemma class_plain (f : N -> bool) q : f q = false -> f BS = false -> f NL = false -> f CR = false -> f 0 = false ->
  forall s, forallb f s = true -> plain q s = true.
Proof.
  intros Hq Hb Hn Hc H0 s. apply forallb_impl. intros c Hfc. unfold plainc. apply negb_true_iff.
  repeat (apply orb_false_iff; split); apply N.eqb_neq; intros ->; congruence.
Qed.

Lemma lit_value_spec q img v : lit_value q img = Some v -> lex_body q (img ++ [q]) = Some (v, []).
Proof.
  unfold lit_value. destruct (lex_body q (img ++ [q])) as [[v' r]|]; [|discriminate].
  destruct r; [|discriminate]. now intros [= ->].
Qed.

(* an inert image between plain template text inside one literal *)
Theorem lit_site q img v : lit_value q img = Some v ->
  forall pre post rest, plain q pre = true -> plain q post = true ->
    lex_body q (pre ++ img ++ post ++ q :: rest) = Some (pre ++ v ++ post, rest).
Proof.
  intros Hv pre post rest Hpre Hpost. apply lit_value_spec in Hv.
  rewrite (lex_body_plain_app q pre _ Hpre).
  rewrite (lex_body_compose q img v _ Hv).
  rewrite (lex_body_plain_app q post _ Hpost).
  rewrite lex_body_close. cbn [prepend]. now rewrite app_nil_r.
Qed.

Lemma lit_guard_value q img v : lit_guard q img v = true -> lit_value q img = Some v.
Proof.
  unfold lit_guard. destruct (lit_value q img) as [v'|]; [|discriminate].
  intros H. apply str_eqb_eq in H. now subst.
Qed.

Lemma lit_inert_value q img : lit_inert q img = true -> exists v, lit_value q img = Some v.
Proof. unfold lit_inert. destruct (lit_value q img) as [v'|]; [eauto|discriminate]. Qed.

Theorem whole_site img v : whole_guard img v = true -> forall rest, lex_string (img ++ rest) = Some (v, rest).
Proof.
  unfold whole_guard, lex_string. destruct img as [|c s]; [discriminate|].
  intros H rest. cbn [app]. destruct ((c =? DQ) || (c =? SQ)); [|discriminate].
  destruct (lex_body c s) as [[v' r]|] eqn:E; [|discriminate].
  destruct r; [|discriminate]. apply str_eqb_eq in H. subst v'.
  now rewrite (lex_body_extend c s v [] rest E).
Qed.

Lemma has_triple_split x : x <> DQ -> forall a b, has_triple (a ++ x :: b) = has_triple a || has_triple b.
Proof.
  intros Hx. pose proof (fun b => has_triple_cons_ne x b Hx) as Base. apply N.eqb_neq in Hx.
  induction a as [|a1 a' IH]; intros b.
  - cbn [app]. rewrite Base. reflexivity.
  - destruct a' as [|a2 [|a3 a'']].
    + cbn [app]. destruct b as [|b1 b'].
      * reflexivity.
      * rewrite has_triple_3, Hx, andb_false_r, andb_false_l. cbn [orb].
        rewrite Base. reflexivity.
    + cbn [app]. rewrite has_triple_3, Hx, andb_false_r. cbn [orb].
      specialize (IH b). cbn [app] in IH. rewrite IH. reflexivity.
    + specialize (IH b). cbn [app] in IH |- *.
      rewrite has_triple_3, IH. rewrite (has_triple_3 a1 a2 a3 a''). now rewrite orb_assoc.
Qed.

Theorem doc_site img : has_triple img = false ->
  forall pre x y post rest, x <> DQ -> y <> DQ -> has_triple pre = false -> has_triple post = false ->
    lex_docstring (safe_docstring (pre ++ x :: img ++ y :: post) ++ rest) = Some ([32] ++ (pre ++ x :: img ++ y :: post) ++ [32], rest).
Proof.
  intros Hi pre x y post rest Hx Hy Hpre Hpost. apply docstring_safe.
  now rewrite (has_triple_split x Hx), (has_triple_split y Hy), Hpre, Hi, Hpost.
Qed.

Lemma class_no_triple (f : N -> bool) : f DQ = false -> forall s, forallb f s = true -> has_triple s = false.
Proof.
  intros Hf. induction s as [|a s IH]; intros H; [reflexivity|].
  cbn [forallb] in H. apply andb_prop in H as [Ha Hs].
  rewrite has_triple_cons_ne by (intros ->; congruence). exact (IH Hs).
Qed.

(* inert_char read through the search tree of UniFast.v, for the table sweeps *)
Definition inert_char_f (c : N) : bool := (128 <=? c) || is_word_f c || (c =? 45).
Lemma inert_char_f_eq c : inert_char c = inert_char_f c.
Proof. unfold inert_char, inert_char_f. now rewrite is_word_f_eq. Qed.

Lemma word_map_inert m : map_preserves is_word_f inert_char_f m = true -> map_preserves is_word inert_char m = true.
Proof. intros <-. apply map_preserves_ext; [intro; symmetry; apply is_word_f_eq | exact inert_char_f_eq]. Qed.

Lemma fact_lower_inert : map_preserves is_word inert_char map_lower = true.
Proof. apply word_map_inert. vm_compute. reflexivity. Qed.
Lemma fact_title_inert : map_preserves is_word inert_char map_title = true.
Proof. apply word_map_inert. vm_compute. reflexivity. Qed.
Lemma fact_upper_inert : map_preserves inert_char inert_char map_upper = true.
Proof. rewrite (map_preserves_ext _ inert_char_f _ inert_char_f) by exact inert_char_f_eq. vm_compute. reflexivity. Qed.
Lemma field_prefix_inert : forallb inert_char field_prefix = true.
Proof. vm_compute. reflexivity. Qed.
Lemma underscore_inert : inert_char 95 = true.
Proof. vm_compute. reflexivity. Qed.
Lemma hyphen_inert : inert_char 45 = true.
Proof. vm_compute. reflexivity. Qed.

Lemma word_inert c : is_word c = true -> inert_char c = true.
Proof. intros H. unfold inert_char. rewrite H. now rewrite orb_true_r. Qed.

Lemma lower_c_inert c : is_word c = true -> forallb inert_char (lower_c c) = true.
Proof. apply (map_preserves_sound is_word inert_char map_lower fact_lower_inert). exact word_inert. Qed.
Lemma title_c_inert c : is_word c = true -> forallb inert_char (title_c c) = true.
Proof. apply (map_preserves_sound is_word inert_char map_title fact_title_inert). exact word_inert. Qed.
Lemma upper_c_inert c : inert_char c = true -> forallb inert_char (upper_c c) = true.
Proof. apply (map_preserves_sound inert_char inert_char map_upper fact_upper_inert). auto. Qed.

Lemma snake_inert value : forallb inert_char (snake_case value) = true.
Proof.
  unfold snake_case. apply cased_words_all; [auto using lower_c_inert|].
  rewrite lower_underscore. cbn [forallb]. now rewrite underscore_inert.
Qed.

Lemma kebab_inert value : forallb inert_char (kebab_case value) = true.
Proof.
  unfold kebab_case. apply cased_words_all; [auto using lower_c_inert|].
  rewrite lower_hyphen. cbn [forallb]. now rewrite hyphen_inert.
Qed.

Lemma fix_reserved_inert s : forallb inert_char s = true -> forallb inert_char (fix_reserved s) = true.
Proof. apply fix_reserved_all, underscore_inert. Qed.

Lemma lower_inert s : forallb is_word s = true -> forallb inert_char (lower s) = true.
Proof. apply forallb_flat_map_impl, lower_c_inert. Qed.

Lemma pascal_inert value : forallb inert_char (pascal_case value) = true.
Proof.
  unfold pascal_case. apply forallb_flat_map. intros w Hw.
  assert (Hword : forallb is_word w = true).
  { apply forallb_forall. intros c Hc. exact (proj2 (split_word_char _ _ _ Hw Hc)). }
  destruct (s_isupper w).
  - exact (forallb_impl _ _ w word_inert Hword).
  - unfold capitalize. destruct w as [|c r]; [reflexivity|].
    cbn [forallb] in Hword. apply andb_prop in Hword as [Hc Hr].
    rewrite forallb_app. rewrite (title_c_inert c Hc). cbn [andb]. now apply lower_inert.
Qed.

Lemma upper_inert s : forallb inert_char s = true -> forallb inert_char (upper s) = true.
Proof. apply forallb_flat_map_impl, upper_c_inert. Qed.

Theorem ident_image_inert sa p : ident_san sa = true -> forallb inert_char (image sa p) = true.
Proof.
  destruct sa; try discriminate; intros _; cbn [image].
  - apply python_identifier_all; [exact field_prefix_inert | exact underscore_inert | exact lower_c_inert].
  - unfold class_name.
    destruct (negb _); apply fix_reserved_inert, pascal_inert.
  - apply kebab_inert.
  - apply upper_inert, snake_inert.
Qed.

Lemma inert_path c : inert_char c = true -> path_char c = true.
Proof.
  unfold inert_char. intros H. apply orb_true_iff in H as [H|H]; [apply orb_true_iff in H as [H|H]|].
  - apply N.leb_le in H. unfold path_char. apply negb_true_iff.
    cbn [memN existsb]. repeat (apply orb_false_iff; split); try reflexivity; apply N.eqb_neq; lia.
  - now apply word_path_char.
  - apply N.eqb_eq in H. subst c. reflexivity.
Qed.

Definition lit_expected (sa : san) (p : str) : str := if ident_san sa then image sa p else site_value sa p.

(* lit_ok and doc_ok name the conclusions of lit_site and doc_site *)
Definition lit_ok (q : N) (img v : str) : Prop :=
  forall pre post rest, plain q pre = true -> plain q post = true ->
    lex_body q (pre ++ img ++ post ++ q :: rest) = Some (pre ++ v ++ post, rest).

Definition doc_ok (img : str) : Prop :=
  forall pre x y post rest, x <> DQ -> y <> DQ -> has_triple pre = false -> has_triple post = false ->
    lex_docstring (safe_docstring (pre ++ x :: img ++ y :: post) ++ rest) = Some ([32] ++ (pre ++ x :: img ++ y :: post) ++ [32], rest).

(* a name token: identifier-class images are inert; PythonIdentifier images (snake-cased, or raw-name fallback inside its guard) are valid
   non-keyword identifiers; validated slots only carry letters, digits, underscore, dash *)
Definition name_ok (sa : san) (p : str) : Prop :=
  let img := image sa p in
  (ident_san sa = true -> forallb inert_char img = true) /\
  ((sa = SSnake \/ sa = SSanitize) -> is_identifier img = true /\ mem_str img keywords = false) /\
  (sa = SRejects -> forallb pathparam_char img = true).

Definition emitted_ok (s : site) (p : str) : Prop :=
  let sa := s_san s in
  let img := image sa p in
  match s_ctx s with
  | CIdent | CPath => name_ok sa p
  | CDQ => lit_ok DQ img (lit_expected sa p)
  | CTomlBasic => forall pre post rest, plain DQ pre = true -> plain DQ post = true ->
                    lex_toml_basic (pre ++ img ++ post ++ DQ :: rest) = Some (pre ++ lit_expected sa p ++ post, rest)
  | CFstrDQ => no_brace img = true /\ exists v, lit_ok DQ img v
  | CSQ => match sa with
           | SRepr | SReprEsc => forall rest, lex_string (img ++ rest) = Some (site_value sa p, rest)
           | _ => lit_ok SQ img (lit_expected sa p)
           end
  | CDoc | CDocCooked => doc_ok img
  | CNumber => sa = SNumber /\ forallb number_char img = true
  | CMarkdown => True
  | CComment | CCode | CUnknown => False
  end.

Lemma class_lit_ok (f : N -> bool) q s : f q = false -> f BS = false -> f NL = false -> f CR = false -> f 0 = false ->
  forallb f s = true -> lit_ok q s s.
Proof. intros Hq Hb Hn Hc H0 H pre post rest. now apply lit_site, plain_lit_value, (class_plain f). Qed.

Lemma class_doc_ok (f : N -> bool) s : f DQ = false -> forallb f s = true -> doc_ok s.
Proof. intros Hf H pre x y post rest. now apply doc_site, (class_no_triple f). Qed.

Lemma ident_image_path sa p : ident_san sa = true -> forallb path_char (image sa p) = true.
Proof. intros Hi. exact (forallb_impl _ _ _ inert_path (ident_image_inert sa p Hi)). Qed.

Lemma ident_lit_ok q sa p : (q = DQ \/ q = SQ) -> ident_san sa = true -> lit_ok q (image sa p) (image sa p).
Proof.
  intros Hq Hi. apply (class_lit_ok path_char); [destruct Hq as [-> | ->]; reflexivity | reflexivity .. | now apply ident_image_path].
Qed.

Lemma ident_doc_ok sa p : ident_san sa = true -> doc_ok (image sa p).
Proof. intros Hi. apply (class_doc_ok path_char); [reflexivity | now apply ident_image_path]. Qed.

Lemma guard_lit_ok q img v : lit_guard q img v = true -> lit_ok q img v.
Proof. intros H pre post rest. apply lit_site, lit_guard_value, H. Qed.

Lemma guard_doc_ok img : negb (has_triple img) && no_nul img = true -> doc_ok img.
Proof. intros H pre x y post rest. apply andb_prop in H as [H _]. apply doc_site. now apply negb_true_iff. Qed.

Lemma ident_name_ok sa p : ident_san sa = true -> g_xid p = true -> name_ok sa p.
Proof.
  intros Hi Hg. split; [intros _; now apply ident_image_inert|]. split.
  - intros [->| ->]; [|discriminate Hi]. cbn [image]. apply python_identifier_valid; [exact fact_field_prefix_good | exact Hg].
  - intros ->. discriminate Hi.
Qed.

Lemma sanitize_name_ok p :
  is_identifier (image SSanitize p) && negb (mem_str (image SSanitize p) keywords) = true -> name_ok SSanitize p.
Proof.
  intros H. apply andb_prop in H as [H1 H2]. apply negb_true_iff in H2.
  split; [discriminate|]. split; [intros _; now split | discriminate].
Qed.

Lemma rejects_name_ok p : forallb pathparam_char p = true -> name_ok SRejects p.
Proof. intros H. split; [discriminate|]. split; [intros [E|E]; discriminate E | intros _; exact H]. Qed.

Lemma rejects_lit_ok q p : (q = DQ \/ q = SQ) -> forallb pathparam_char p = true -> lit_ok q p p.
Proof. intros Hq. apply (class_lit_ok pathparam_char); [destruct Hq as [-> | ->]; reflexivity | reflexivity ..]. Qed.

Lemma rejects_doc_ok p : forallb pathparam_char p = true -> doc_ok p.
Proof. now apply (class_doc_ok pathparam_char). Qed.

Lemma number_doc_ok p : forallb number_char p = true -> doc_ok p.
Proof. now apply (class_doc_ok number_char). Qed.

(* in every context the sanitiser decides the lemma: identifier-class ident_*, SRejects rejects_*, SNumber number_*, any other the
   guard_* lemma of the context *)
Theorem site_sound : forall s p, site_safe s = true -> slot_guard s p = true -> emitted_ok s p.
Proof.
  intros [slot file c sa] p Hsafe Hg.
  unfold emitted_ok, slot_guard, site_safe, lit_expected in *. cbn [s_ctx s_san] in *.
  (* the emitted text and its value stay abstract while the guard is reduced to the branch of the case at hand: with
     python_identifier p in their place (SSanitize) the kernel unfolds it when it re-checks those reductions *)
  remember (image sa p) as img eqn:Ei. remember (site_value sa p) as v eqn:Ev.
  destruct c; try exact I;
    try (destruct sa; cbn [site_class ident_san] in Hsafe; discriminate Hsafe).
  (* CIdent, CPath *)
  1-2: destruct sa; cbn [site_class ident_san] in Hsafe, Hg; try discriminate Hsafe; subst img v;
      [apply ident_name_ok; [reflexivity | exact Hg] .. | exact (sanitize_name_ok _ Hg) | exact (rejects_name_ok _ Hg)].
  - (* CDQ *)
    destruct sa; cbn [site_class ident_san] in Hsafe, Hg; try discriminate Hsafe; subst img v;
      first [ apply andb_prop in Hg as [Hg _]; now apply guard_lit_ok | now apply ident_lit_ok; [left|] | now apply rejects_lit_ok; [left|] ].
  - (* CSQ: repr output is a literal of its own *)
    destruct sa; cbn [site_class ident_san] in Hsafe, Hg; try discriminate Hsafe; subst img v;
      first [ now apply whole_site | apply andb_prop in Hg as [Hg _]; now apply guard_lit_ok | now apply ident_lit_ok; [right|] | now apply rejects_lit_ok; [right|] ].
  - (* CDoc *)
    destruct sa; cbn [site_class ident_san] in Hsafe, Hg; try discriminate Hsafe; subst img v;
      first [ now apply guard_doc_ok | now apply ident_doc_ok | now apply rejects_doc_ok | now apply number_doc_ok ].
  - (* CDocCooked *)
    destruct sa; cbn [site_class ident_san] in Hsafe, Hg; try discriminate Hsafe; subst img v; now apply ident_doc_ok.
  - (* CFstrDQ *)
    destruct sa; cbn [site_class ident_san] in Hsafe, Hg; try discriminate Hsafe; subst img v;
      apply andb_prop in Hg as [Hg _]; apply andb_prop in Hg as [Hi Hb]; (split; [exact Hb|]);
      apply lit_inert_value in Hi as [v Hv]; exists v; exact (lit_site DQ _ v Hv).
  - (* CTomlBasic *)
    unfold lex_toml_basic.
    destruct sa; cbn [site_class ident_san] in Hsafe, Hg; try discriminate Hsafe; subst img v;
      first [ apply andb_prop in Hg as [Hg _]; apply andb_prop in Hg as [Hg _]; now apply guard_lit_ok | now apply ident_lit_ok; [left|] ].
  - (* CNumber *)
    destruct sa; cbn [site_class ident_san] in Hsafe, Hg; try discriminate Hsafe. subst img. now split.
Qed.

(* the regenerated table: every site of the generator under verification is acceptable *)
Theorem all_sites_safe : forallb site_safe gen_sites = true.
Proof. vm_compute. reflexivity. Qed.

Theorem every_site_sound : forall s p, In s gen_sites -> slot_guard s p = true -> emitted_ok s p.
Proof.
  intros s p Hin Hg. apply site_sound; [|exact Hg].
  pose proof all_sites_safe as H. rewrite forallb_forall in H. now apply H.
Qed.

Definition mk (c : ctx) (sa : san) (slot file : string) : site := {| s_slot := slot; s_file := file; s_ctx := c; s_san := sa |}.

Lemma escape_dq_existsb (f : N -> bool) p : f 92 = false -> existsb f (escape_dq p) = existsb f p.
Proof.
  intros H92. induction p as [|c p IH]; [reflexivity|].
  rewrite escape_dq_cons, existsb_app, IH. destruct (N.eqb_spec c 34) as [->|NE]; cbn [existsb]; [rewrite H92, orb_false_r; reflexivity | now rewrite orb_false_r].
Qed.

Theorem guard_dq_esc slot file p : no_bs_nl p = true -> no_linesep p = true -> slot_guard (mk CDQ SEsc slot file) p = true.
Proof.
  intros H Hl. cbn -[no_linesep]. unfold no_linesep in *. rewrite escape_dq_existsb, Hl by reflexivity. unfold lit_guard, lit_value.
  rewrite (dq_literal_roundtrip p [] H). now rewrite str_eqb_refl.
Qed.

Theorem guard_dq_none slot file p : plain_dq p = true -> no_linesep p = true -> slot_guard (mk CDQ SNone slot file) p = true.
Proof.
  intros H Hl. cbn -[no_linesep]. rewrite Hl. unfold lit_guard, lit_value.
  rewrite (raw_in_dq p [] H). now rewrite str_eqb_refl.
Qed.

Theorem guard_sq_repr slot file p : repr_printable p = true -> slot_guard (mk CSQ SRepr slot file) p = true.
Proof.
  intros H. cbn. unfold whole_guard.
  rewrite (repr_roundtrip_printable p H). apply str_eqb_refl.
Qed.

Theorem guard_doc_esc slot file p : no_nul p = true -> slot_guard (mk CDoc SEsc slot file) p = true.
Proof. intros H. cbn -[no_nul]. unfold no_nul in *. now rewrite escape_dq_no_triple, escape_dq_existsb, H by reflexivity. Qed.

Theorem guard_doc_none slot file p : has_triple p = false -> no_nul p = true -> slot_guard (mk CDoc SNone slot file) p = true.
Proof. intros H H0. cbn -[no_nul]. now rewrite H, H0. Qed.

Theorem guard_ident slot file c sa p : ident_san sa = true -> g_xid p = true -> slot_guard (mk c sa slot file) p = true.
Proof. intros Hi Hg. unfold slot_guard. cbn [mk s_san s_ctx]. rewrite Hi. destruct c; try reflexivity; exact Hg. Qed.

(* non-vacuity: a non-trivial payload inside each guard *)
Example guard_examples :
  slot_guard (mk CDQ SEsc "n" "f") (s2l "say ""hi"" {x} # 'y'") = true /\
  slot_guard (mk CDoc SNone "d" "f") (s2l "He said ""hi"" and \ left") = true /\
  slot_guard (mk CSQ SReprEsc "d" "f") (s2l "it's ""quoted"" \ here") = true /\
  slot_guard (mk CTomlBasic SEsc "t" "f") (s2l "My ""API""") = true /\
  slot_guard (mk CFstrDQ SEsc "k" "f") (s2l "plain name") = true.
Proof. vm_compute. repeat split; reflexivity. Qed.

(* desc_code_exec: an unescaped description containing a triple quote ends the docstring; the rest of the text is lexed as code *)
Theorem desc_code_exec_refuted : exists p v r,
  slot_guard (mk CDoc SNone "Schema.description@model" "models/*.py") p = false /\
  lex_docstring (safe_docstring p) = Some (v, r) /\ r = s2l (String (ascii_of_N 10) "import os" ++ String (ascii_of_N 10) """"""" """"""")%string.
Proof.
  exists (s2l ("x """"""" ++ String (ascii_of_N 10) "import os" ++ String (ascii_of_N 10) """""""")%string).
  vm_compute. eexists. eexists. repeat split.
Qed.

(* meta_injection: info.version is interpolated raw into pyproject.toml / setup.py *)
Theorem meta_injection_refuted : exists p v r,
  slot_guard (mk CTomlBasic SNone "Info.version" "pyproject.toml") p = false /\
  slot_guard (mk CDQ SNone "Info.version" "setup.py") p = false /\
  lex_toml_basic (p ++ [DQ]) = Some (v, r) /\ r <> [].
Proof.
  exists (s2l ("1""" ++ String (ascii_of_N 10) "evil = ""x")%string).
  vm_compute. eexists. eexists. repeat split. discriminate.
Qed.

(* path_injection / content_type_injection: the path and the media type are interpolated raw into a double-quoted literal *)
Theorem path_injection_refuted : exists p v r,
  slot_guard (mk CDQ SNone "OpenAPI.paths.key" "api/*/*.py") p = false /\
  slot_guard (mk CDQ SNone "RequestBody.content.key@param" "api/*/*.py") p = false /\
  lex_body DQ (p ++ [DQ]) = Some (v, r) /\ r <> [].
Proof.
  exists (s2l "/a"" + __import__('os').system('id') + """).
  vm_compute. eexists. eexists. repeat split. discriminate.
Qed.

(* no hand-quoted default site is acceptable: UUID() accepts surrounding whitespace, newline included (known finding
   uuid_default_whitespace), isoparse any single character between date and time; a hand-quoted literal survives neither, a
   repr-emitted one does *)
Theorem handquoted_default_refuted :
  slot_guard (mk CSQ SNone "Schema.default@prop-uuid" "models/*.py") (10 :: s2l "0000000-aaaa-4bbb-8ccc-dddddddddddd") = false /\
  lex_body SQ ((10 :: s2l "0000000-aaaa-4bbb-8ccc-dddddddddddd") ++ [SQ]) = None /\
  slot_guard (mk CSQ SNone "Schema.default@prop-datetime" "models/*.py") (s2l "2020-01-01'10:00:00") = false /\
  site_safe (mk CSQ SNone "Schema.default@prop-uuid" "models/*.py") = false /\
  site_safe (mk CSQ SNone "Schema.default@query-uuid" "api/*/*.py") = false /\
  site_safe (mk CSQ SNone "Schema.default@prop-datetime" "models/*.py") = false /\
  site_safe (mk CSQ SNone "Schema.default@query-datetime" "api/*/*.py") = false /\
  site_safe (mk CSQ SNone "Schema.default@prop-date" "models/*.py") = false /\
  site_safe (mk CSQ SRepr "Schema.default@prop-uuid" "models/*.py") = true /\
  site_safe (mk CSQ SRepr "Schema.default@prop-datetime" "models/*.py") = true /\
  slot_guard (mk CSQ SRepr "Schema.default@prop-uuid" "models/*.py") (10 :: s2l "0000000-aaaa-4bbb-8ccc-dddddddddddd") = true /\
  slot_guard (mk CSQ SRepr "Schema.default@prop-datetime" "models/*.py") (s2l "2020-01-01'10:00:00") = true.
Proof. vm_compute. repeat split; reflexivity. Qed.

(* raw_fallback: the raw-name fallback keeps the delimiters space, dash, dot; every other symbol is removed *)
Theorem raw_fallback_site_refuted :
  slot_guard (mk CIdent SSanitize "Schema.properties.key@collide" "models/*.py") (s2l "user-id") = false /\
  site_finding (mk CIdent SSanitize "Schema.properties.key@collide" "models/*.py") (s2l "user-id") = "raw_fallback"%string /\
  slot_guard (mk CIdent SSanitize "Schema.properties.key@collide" "models/*.py") (s2l "userId;#()=""'") = true /\
  image SSanitize (s2l "userId;#()=""'") = s2l "userId".
Proof. vm_compute. repeat split; reflexivity. Qed.

(* nul_char: a NUL character in unescaped or quote-escaped text reaches the file *)
Theorem nul_char_refuted :
  slot_guard (mk CDoc SEsc "Operation.description" "api/*/*.py") [97; 0] = false /\
  slot_guard (mk CDQ SEsc "Schema.properties.key@model" "models/*.py") [97; 0] = false.
Proof. vm_compute. repeat split; reflexivity. Qed.

(* linesep_newline: the indent filter turns a line separator inside an escaped name into a real newline *)
Theorem linesep_newline_refuted :
  slot_guard (mk CDQ SEsc "Schema.properties.key@model" "models/*.py") [97; 8232; 98] = false /\
  no_bs_nl [97; 8232; 98] = true /\
  lex_body DQ ([97; 10; 98] ++ [DQ]) = None.
Proof. vm_compute. repeat split; reflexivity. Qed.

(* name_backslash: remove_string_escapes does not escape a backslash or a newline *)
Theorem name_backslash_refuted :
  slot_guard (mk CDQ SEsc "Schema.properties.key@model" "models/*.py") [97; 92] = false /\
  lex_body DQ (escape_dq [97; 92] ++ [DQ]) = None /\
  slot_guard (mk CDQ SEsc "Schema.properties.key@model" "models/*.py") [97; 10; 98] = false /\
  lex_body DQ (escape_dq [97; 10; 98] ++ [DQ]) = None.
Proof. vm_compute. repeat split; reflexivity. Qed.

(* const_fstring: the property name and the const value are interpolated into an f-string *)
Theorem const_fstring_refuted :
  slot_guard (mk CFstrDQ SEsc "Schema.properties.key@const" "models/*.py") (s2l "{__import__('os')}") = false /\
  no_bs_nl (s2l "{__import__('os')}") = true /\
  slot_guard (mk CFstrDQ SReprEsc "Schema.const@prop" "models/*.py") (s2l "x""y") = false /\
  (exists v r, lex_body DQ (image SReprEsc (s2l "x""y") ++ [DQ]) = Some (v, r) /\ r <> []).
Proof.
  vm_compute. repeat split. eexists. eexists. split; [reflexivity | discriminate].
Qed.

(* default_not_verbatim: a string default / const containing a double quote is data, but not the declared text *)
Theorem default_not_verbatim_refuted : exists p,
  slot_guard (mk CSQ SReprEsc "Schema.default@prop-string" "models/*.py") p = true /\
  slot_verbatim (mk CSQ SReprEsc "Schema.default@prop-string" "models/*.py") p = false /\
  lex_string (image SReprEsc p) = Some (escape_dq p, []) /\ escape_dq p <> p.
Proof.
  exists (s2l "a""b"). vm_compute. repeat split. discriminate.
Qed.

(* each narrow site of the table is tied to a finding id; an unlisted narrow site, a raw interpolation in code or a comment are rejected *)
Example unlisted_sites_rejected :
  site_safe (mk CDQ SNone "Operation.operationId" "api/*/*.py") = false /\
  site_safe (mk CDoc SNone "Operation.description" "api/*/*.py") = false /\
  site_safe (mk CComment SEsc "Operation.description" "api/*/*.py") = false /\
  site_safe (mk CCode SNone "Schema.default@prop-string" "models/*.py") = false /\
  site_safe (mk CDQ SNone "Schema.enum.item@component" "models/*.py") = false /\
  site_safe (mk CDQ SNone "Schema.enum.item@component-positional" "models/*.py") = false /\
  site_safe (mk CDocCooked SEsc "Operation.description" "api/*/*.py") = false /\
  site_safe (mk CIdent SSanitize "Operation.operationId" "api/*/*.py") = false /\
  site_safe (mk CIdent SEsc "Schema.properties.key@collide" "models/*.py") = false /\
  site_safe (mk CUnknown SUnknown "x" "y") = false.
Proof. vm_compute. repeat split; reflexivity. Qed.

Print Assumptions site_sound.
Print Assumptions all_sites_safe.
Print Assumptions every_site_sound.
Print Assumptions ident_image_inert.
