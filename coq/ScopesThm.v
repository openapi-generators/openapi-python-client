(* ScopesThm.v — proofs about Scopes.v (C09, second half: names of one scope never merge silently). *)
From Coq Require Import NArith ZArith PeanoNat List Bool Lia Permutation.
Import ListNotations.
Require Import OPC.gen.GenTables OPC.Uni OPC.Names OPC.NamesThm OPC.NamesFast OPC.Values OPC.ValuesThm OPC.Scopes.
Open Scope N_scope.

Lemma pi_noprefix (v prefix : str) (sk : bool) :
  negb (is_identifier (fix_reserved (if sk then sanitize v else snake_case (sanitize v)))) || starts_us v = false ->
  python_identifier v prefix sk = fix_reserved (if sk then sanitize v else snake_case (sanitize v)).
Proof.
  intro H. unfold python_identifier.
  destruct sk; cbv zeta; rewrite H; reflexivity.
Qed.

Lemma pi_nil (v : str) (sk : bool) :
  python_identifier v [] sk = fix_reserved (if sk then sanitize v else snake_case (sanitize v)).
Proof. unfold python_identifier. cbv zeta. now destruct (negb _ || _), sk. Qed.

(* never compute the table-driven functions on variables *)
#[local] Opaque python_identifier class_name.

(* to evaluate a default python name through the search trees of NamesFast, rewrite with this first *)
Lemma py_default_f prefix n : py_default prefix n = python_identifier_f n prefix.
Proof. symmetry. apply python_identifier_f_eq. Qed.

Lemma g_no_raw_fallback_f prefix names :
  g_no_raw_fallback prefix names = nodupb (map (fun n => python_identifier_f n prefix) names).
Proof. unfold g_no_raw_fallback. f_equal. apply map_ext. intro n. apply py_default_f. Qed.

Lemma param_init_f prefix x : param_init prefix x = mk_param (fst x) (snd x) (python_identifier_f (snd x) prefix).
Proof. unfold param_init. now rewrite py_default_f. Qed.

Lemma nodupb_NoDup l : nodupb l = true <-> NoDup l.
Proof.
  induction l as [|x l IH]; cbn [nodupb].
  - split; [constructor | reflexivity].
  - rewrite andb_true_iff, negb_true_iff, mem_str_false, IH. split.
    + intros [H1 H2]. now constructor.
    + intro H. inversion H; subst. now split.
Qed.

Lemma scan_no_conflict prefix cur : forall others,
  (forall o, In o others -> a_name o <> a_name cur -> a_py o <> a_py cur) ->
  scan_conflicts prefix cur others = Ok (cur, others).
Proof.
  induction others as [|o os IH]; intro H; cbn [scan_conflicts]; [reflexivity|].
  rewrite IH by (intros x Hx; apply H; now right).
  destruct (str_eqb_spec (a_name o) (a_name cur)) as [_|Hn]; [reflexivity|].
  now rewrite (str_eqb_neq _ _ (H o (or_introl eq_refl) Hn)).
Qed.

Lemma put_attr_fresh c : forall l, (forall o, In o l -> a_name o <> a_name c) -> put_attr c l = l ++ [c].
Proof.
  induction l as [|o l IH]; intro H; cbn [put_attr app]; [reflexivity|].
  rewrite (str_eqb_neq _ _ (H o (or_introl eq_refl))), IH; [reflexivity|].
  intros x Hx. apply H. now right.
Qed.

Lemma py_default_inj_name prefix a b : py_default prefix a <> py_default prefix b -> a <> b.
Proof. intros H E. subst. contradiction. Qed.

Lemma add_attr_init prefix done n :
  ~ In (py_default prefix n) (map (py_default prefix) done) ->
  add_attr prefix (map (attr_init prefix) done) (attr_init prefix n) = Ok (map (attr_init prefix) (done ++ [n])).
Proof.
  intro Hn.
  assert (Hpy: forall o, In o (map (attr_init prefix) done) -> a_py o <> a_py (attr_init prefix n)).
  { intros o Ho E. apply in_map_iff in Ho as [x [<- Hx]]. cbn [attr_init a_py] in E. apply Hn. rewrite <- E. now apply in_map. }
  unfold add_attr. rewrite scan_no_conflict by (intros o Ho _; now apply Hpy).
  rewrite put_attr_fresh, map_app; [reflexivity|].
  intros o Ho E. apply (Hpy o Ho). apply in_map_iff in Ho as [x [<- _]]. cbn [attr_init a_name a_py] in *. now rewrite E.
Qed.

Lemma add_attrs_plain prefix : forall rest done,
  NoDup (map (py_default prefix) (done ++ rest)) ->
  add_attrs prefix (map (attr_init prefix) done) rest = Ok (map (attr_init prefix) (done ++ rest)).
Proof.
  induction rest as [|n rest IH]; intros done Hnd; cbn [add_attrs].
  - now rewrite app_nil_r.
  - rewrite add_attr_init.
    + rewrite IH; rewrite <- app_assoc; [reflexivity|exact Hnd].
    + rewrite map_app in Hnd. apply NoDup_remove_2 in Hnd. intro Hin. apply Hnd, in_or_app. now left.
Qed.

(* Under the guard nothing is renamed: every attribute keeps its default (snake-cased) python name, the fold succeeds,
   and the names are pairwise distinct. *)
Theorem attrs_distinct prefix names :
  g_no_raw_fallback prefix names = true ->
  model_attrs prefix names = Ok (map (attr_init prefix) names) /\
  NoDup (map a_py (map (attr_init prefix) names)) /\
  map a_py (map (attr_init prefix) names) = map (fun n => python_identifier n prefix false) names.
Proof.
  intro G. apply nodupb_NoDup in G. unfold model_attrs.
  assert (E: map a_py (map (attr_init prefix) names) = map (py_default prefix) names).
  { rewrite map_map. apply map_ext. reflexivity. }
  split; [|split].
  - apply (add_attrs_plain prefix names []). exact G.
  - now rewrite E.
  - rewrite E. reflexivity.
Qed.

(* ... and then (for document names without the xid gap) every name is a valid non-keyword identifier *)
Corollary attrs_valid prefix names :
  good_prefix prefix = true -> forallb g_xid names = true -> g_no_raw_fallback prefix names = true ->
  exists props, model_attrs prefix names = Ok props /\ NoDup (map a_py props) /\
    forall p, In p props -> is_identifier (a_py p) = true /\ mem_str (a_py p) keywords = false.
Proof.
  intros Hp Hx G. destruct (attrs_distinct prefix names G) as [H1 [H2 H3]].
  exists (map (attr_init prefix) names). split; [exact H1|]. split; [exact H2|].
  intros p Hin. apply in_map_iff in Hin as [n [<- Hn]]. cbn [attr_init a_py]. unfold py_default.
  apply python_identifier_valid; [exact Hp|]. rewrite forallb_forall in Hx. now apply Hx.
Qed.

(* the scan loop of _add_if_no_conflict, for the entry c stored for cur and each earlier entry o -> o'; the clauses are read
   out at attrs_last_pair_distinct *)
Lemma scan_spec prefix : forall others cur c others',
  scan_conflicts prefix cur others = Ok (c, others') ->
  a_name c = a_name cur /\
  (a_py c = a_py cur \/ a_py c = py_raw prefix (a_name cur)) /\
  map a_name others' = map a_name others /\
  forall i o o', nth_error others i = Some o -> nth_error others' i = Some o' ->
    (o' = o \/ o' = attr_raw prefix o) /\
    (a_name o <> a_name cur -> a_py o = a_py cur -> a_py o' <> a_py c) /\
    (a_name o <> a_name cur -> a_py c = a_py cur -> a_py o' <> a_py c).
Proof.
  induction others as [|o os IH]; intros cur c others' H; cbn [scan_conflicts] in H.
  - injection H as <- <-. split; [reflexivity|]. split; [now left|]. split; [reflexivity|].
    intros [|i] o o' Ho; discriminate.
  - destruct (str_eqb (a_name o) (a_name cur) || negb (str_eqb (a_py o) (a_py cur))) eqn:Eskip.
    + destruct (scan_conflicts prefix cur os) as [[c1 os1]|] eqn:Es; [|discriminate].
      injection H as <- <-. destruct (IH _ _ _ Es) as [Hn [Hp [Hm Hi]]].
      split; [exact Hn|]. split; [exact Hp|]. split; [cbn [map]; now rewrite Hm|].
      intros [|i] x x' Hx Hx'; cbn [nth_error] in Hx, Hx'.
      * injection Hx as <-. injection Hx' as <-. split; [now left|].
        assert (Hd: a_name o <> a_name cur -> a_py o <> a_py cur).
        { intros Hne. apply orb_true_iff in Eskip as [E|E].
          - apply str_eqb_eq in E. contradiction.
          - apply negb_true_iff, str_eqb_false in E. exact E. }
        split; intros Hne He; [now apply Hd in Hne|]. rewrite He. now apply Hd.
      * now apply (Hi i).
    + apply orb_false_iff in Eskip as [Ename Epy]. apply negb_false_iff, str_eqb_eq in Epy.
      destruct (str_eqb (a_py (attr_raw prefix cur)) (a_py (attr_raw prefix o))) eqn:Eraw; [discriminate|].
      apply str_eqb_false in Eraw.
      destruct (scan_conflicts prefix (attr_raw prefix cur) os) as [[c1 os1]|] eqn:Es; [|discriminate].
      injection H as <- <-. destruct (IH _ _ _ Es) as [Hn [Hp [Hm Hi]]].
      cbn [attr_raw a_name a_py] in Hn, Hp, Eraw.
      assert (Hc: a_py c1 = py_raw prefix (a_name cur)) by (destruct Hp as [Hp|Hp]; exact Hp).
      split; [exact Hn|]. split; [now right|]. split; [cbn [map attr_raw a_name]; now rewrite Hm|].
      intros [|i] x x' Hx Hx'; cbn [nth_error] in Hx, Hx'.
      * injection Hx as <-. injection Hx' as <-. split; [now right|].
        cbn [attr_raw a_py]. rewrite Hc. split; intros _ _ E; apply Eraw; now rewrite E.
      * destruct (Hi i x x' Hx Hx') as [Ha [_ Hb]]. split; [exact Ha|].
        cbn [attr_raw a_name a_py] in Hb.
        split; intros Hne _; apply Hb; auto.
Qed.

(* when adding `new` to the properties collected so far succeeds,
   - every earlier property whose python name equalled new's default name ends with a name different from new's final name
     (both were renamed to their raw names and compared), and
   - if new keeps its default name it differs from every earlier property;
   nothing is guaranteed about an earlier property whose name equals new's RAW-name fallback (attrs_distinct_refuted). *)
Theorem attrs_last_pair_distinct prefix props new props' :
  (forall o, In o props -> a_name o <> a_name new) ->
  add_attr prefix props new = Ok props' ->
  exists c others', props' = others' ++ [c] /\ a_name c = a_name new /\
    (a_py c = a_py new \/ a_py c = py_raw prefix (a_name new)) /\
    length others' = length props /\
    forall i o o', nth_error props i = Some o -> nth_error others' i = Some o' ->
      (o' = o \/ o' = attr_raw prefix o) /\
      (a_py o = a_py new -> a_py o' <> a_py c) /\
      (a_py c = a_py new -> a_py o' <> a_py c).
Proof.
  intros Hfresh H. unfold add_attr in H.
  destruct (scan_conflicts prefix new props) as [[c others']|] eqn:Es; [|discriminate].
  injection H as <-. destruct (scan_spec _ _ _ _ _ Es) as [Hn [Hp [Hm Hi]]].
  exists c, others'. split.
  - apply put_attr_fresh. intros o Ho. rewrite Hn. apply (in_map a_name) in Ho. rewrite Hm in Ho.
    apply in_map_iff in Ho as [o0 [<- Ho0]]. now apply Hfresh.
  - split; [exact Hn|]. split; [exact Hp|]. split; [now rewrite <- (map_length a_name), Hm, map_length|].
    intros i o o' Ho Ho'. destruct (Hi i o o' Ho Ho') as [Ha [Hb Hc]].
    assert (Hne: a_name o <> a_name new) by (apply Hfresh; eapply nth_error_In; exact Ho).
    split; [exact Ha|]. split; auto.
Qed.

Lemma add_attrs_snoc prefix : forall names props n r,
  add_attrs prefix props (names ++ [n]) = Ok r ->
  exists mid, add_attrs prefix props names = Ok mid /\ add_attr prefix mid (attr_init prefix n) = Ok r.
Proof.
  induction names as [|x names IH]; intros props n r H; cbn [app add_attrs] in *.
  - destruct (add_attr prefix props (attr_init prefix n)) as [p1|] eqn:E; [|discriminate].
    exists props. split; [reflexivity|]. now rewrite E.
  - destruct (add_attr prefix props (attr_init prefix x)) as [p1|] eqn:E; [|discriminate]. now apply IH.
Qed.

(* attr_rename_unchecked: Self, self!, $Self — the fold succeeds and two attributes share the python name Self *)
Theorem attrs_distinct_refuted :
  exists names props, NoDup names /\ model_attrs [102;105;101;108;100;95] names = Ok props /\
    g_no_raw_fallback [102;105;101;108;100;95] names = false /\ ~ NoDup (map a_py props).
Proof.
  exists [[83;101;108;102]; [115;101;108;102;33]; [36;83;101;108;102]].
  eexists. split; [|split; [vm_compute; reflexivity | split; [rewrite g_no_raw_fallback_f; vm_compute; reflexivity|]]].
  - apply nodupb_NoDup. vm_compute. reflexivity.
  - intro H. apply nodupb_NoDup in H. vm_compute in H. discriminate.
Qed.

(* raw_fallback: a-b, a_b — the fold succeeds, names are distinct, but field_a-b is not an identifier *)
Theorem raw_fallback_not_identifier_refuted :
  exists names props, forallb g_xid names = true /\ model_attrs [102;105;101;108;100;95] names = Ok props /\
    g_no_raw_fallback [102;105;101;108;100;95] names = false /\
    exists p, In p props /\ is_identifier (a_py p) = false.
Proof.
  exists [[97;45;98]; [97;95;98]]. eexists.
  split; [vm_compute; reflexivity|]. split; [vm_compute; reflexivity|]. split; [rewrite g_no_raw_fallback_f; vm_compute; reflexivity|].
  eexists. split; [left; reflexivity|]. vm_compute. reflexivity.
Qed.

Example attrs_distinct_nonvacuous :
  g_no_raw_fallback [102;105;101;108;100;95] [[105;116;101;109;73;100]; [99;108;97;115;115]; [97;45;98]; [95;120]] = true.
Proof. rewrite g_no_raw_fallback_f. vm_compute. reflexivity. Qed.

Lemma check_fuel_two prefix ps f :
  check_fuel prefix (S (S f)) None ps = Some (check_params_ev prefix ps).
Proof.
  unfold check_params_ev. cbn [check_fuel].
  destruct (pass_loop prefix ps [] [] [] false) as [[[ps1 m1] ev1]|]; [|reflexivity].
  destruct m1 as [|k m1]; cbn [is_nil negb andb]; [reflexivity|].
  destruct (pass_loop prefix ps1 [] [] (k :: m1) false) as [[[ps2 m2] ev2]|]; [|reflexivity].
  now rewrite andb_false_r.
Qed.

(* the recursion of _check_parameters_for_conflicts needs at most length+1 calls (in fact at most 2:
   the re-run compares the modified set with itself) and computes check_params_ev *)
Theorem conflict_check_terminates prefix ps :
  check_fuel prefix (S (length ps)) None ps = Some (check_params_ev prefix ps) /\
  forall fuel, (2 <= fuel)%nat -> check_fuel prefix fuel None ps = Some (check_params_ev prefix ps).
Proof.
  split.
  - destruct ps as [|p ps]; [reflexivity|]. cbn [length]. apply check_fuel_two.
  - intros [|[|f]] H; try lia. apply check_fuel_two.
Qed.

Lemma dict_pop_None k : forall d r d', dict_pop k d = (r, d') -> (r = None <-> ~ In k (map fst d)).
Proof.
  induction d as [|[k' v] d IH]; intros r d' H; cbn [dict_pop] in H.
  - injection H as <- <-. split; auto.
  - destruct (str_eqb k' k) eqn:E.
    + injection H as <- <-. apply str_eqb_eq in E. subst. split; [discriminate|]. intro Hn. exfalso. apply Hn. now left.
    + destruct (dict_pop k d) as [r1 d1] eqn:E1. injection H as <- <-. apply str_eqb_false in E.
      rewrite (IH _ _ eq_refl). cbn [map fst In]. tauto.
Qed.

Lemma dict_pop_Some k : forall d j d', dict_pop k d = (Some j, d') -> In (k, j) d.
Proof.
  induction d as [|[k' v] d IH]; intros j d' H; cbn [dict_pop] in H; [discriminate|].
  destruct (str_eqb k' k) eqn:E.
  - injection H as <- <-. apply str_eqb_eq in E. subst. now left.
  - destruct (dict_pop k d) as [r1 d1] eqn:E1. injection H as -> <-. right. now apply (IH _ _ eq_refl).
Qed.

Lemma dict_set_keys k v : forall d x, In x (map fst (dict_set k v d)) <-> x = k \/ In x (map fst d).
Proof.
  induction d as [|[k' v'] d IH]; intro x; cbn [dict_set map fst In].
  - split; [intros [<-|[]]; now left | intros [->|[]]; now left].
  - destruct (str_eqb k' k) eqn:E; cbn [map fst In].
    + apply str_eqb_eq in E. subst. split; [intros [<-|H]; auto | intros [->|[<-|H]]; auto].
    + rewrite IH. tauto.
Qed.

Lemma dict_set_In k v : forall d k1 v1, In (k1, v1) (dict_set k v d) -> (k1 = k /\ v1 = v) \/ In (k1, v1) d.
Proof.
  induction d as [|[k' v'] d IH]; intros k1 v1 H; cbn [dict_set In] in *.
  - destruct H as [[= <- <-]|[]]. now left.
  - destruct (str_eqb k' k); cbn [In] in H.
    + destruct H as [[= <- <-]|H]; [now left | right; now right].
    + destruct H as [H|H]; [right; now left|]. apply IH in H as [H|H]; [now left | right; now right].
Qed.

Lemma pass_ev_true prefix : forall todo done used m out m' ev',
  pass_loop prefix todo done used m true = Ok (out, m', ev') -> ev' = true.
Proof.
  induction todo as [|p todo IH]; intros done used m out m' ev' H; cbn [pass_loop] in H.
  - now injection H as _ _ <-.
  - destruct (reserved_param (p_py p)); [now apply IH in H|].
    destruct (dict_pop (p_py p) used) as [[j|] used'].
    + destruct (nth_error done j) as [c|]; [|discriminate].
      destruct (mem_key (p_loc c, p_name c) m || mem_key (p_loc p, p_name p) m); [discriminate|].
      now apply IH in H.
    + now apply IH in H.
Qed.

Definition quiet_inv (done : list param) (used : list (str * nat)) : Prop :=
  NoDup (map p_py done) /\ (forall p, In p done -> reserved_param (p_py p) = false) /\
  (forall p, In p done -> In (p_py p) (map fst used)).

Lemma pass_quiet prefix : forall todo done used m out m',
  quiet_inv done used ->
  pass_loop prefix todo done used m false = Ok (out, m', false) ->
  out = done ++ todo /\ m' = m /\ NoDup (map p_py out) /\ forall p, In p out -> reserved_param (p_py p) = false.
Proof.
  induction todo as [|p todo IH]; intros done used m out m' [I1 [I2 I3]] H; cbn [pass_loop] in H.
  - injection H as <- <-. rewrite app_nil_r. auto.
  - destruct (reserved_param (p_py p)) eqn:Er; [apply pass_ev_true in H; discriminate|].
    destruct (dict_pop (p_py p) used) as [[j|] used'] eqn:Ep.
    + destruct (nth_error done j) as [c|]; [|discriminate].
      destruct (mem_key (p_loc c, p_name c) m || mem_key (p_loc p, p_name p) m); [discriminate|].
      apply pass_ev_true in H. discriminate.
    + assert (Hk: ~ In (p_py p) (map fst used)) by (now apply (dict_pop_None _ _ _ _ Ep)).
      apply IH in H.
      * rewrite <- app_assoc in H. exact H.
      * split; [|split].
        -- rewrite map_app. cbn [map]. apply NoDup_snoc; [exact I1|].
           intro Hin. apply in_map_iff in Hin as [q [Eq Hq]]. apply Hk. rewrite <- Eq. now apply I3.
        -- intros q Hq. apply in_app_or in Hq as [Hq|[<-|[]]]; auto.
        -- intros q Hq. apply dict_set_keys. apply in_app_or in Hq as [Hq|[<-|[]]]; auto.
Qed.

Corollary pass_quiet_run prefix ps m out m' :
  pass_loop prefix ps [] [] m false = Ok (out, m', false) ->
  out = ps /\ NoDup (map p_py out) /\ forall p, In p out -> reserved_param (p_py p) = false.
Proof.
  intro H. apply pass_quiet in H as [Ho [_ Hq]]; [now split|]. split; [constructor | split; intros ? []].
Qed.

Lemma update_nth_keys j c c' : forall done, nth_error done j = Some c -> param_key c' = param_key c ->
  map param_key (update_nth j c' done) = map param_key done.
Proof.
  intro done. revert j. induction done as [|x done IH]; intros [|j] H Hk; cbn [nth_error update_nth map] in *; try discriminate.
  - injection H as ->. now rewrite Hk.
  - now rewrite IH.
Qed.

Lemma pass_keys prefix : forall todo done used m ev out m' ev',
  pass_loop prefix todo done used m ev = Ok (out, m', ev') -> map param_key out = map param_key (done ++ todo).
Proof.
  induction todo as [|p todo IH]; intros done used m ev out m' ev' H; cbn [pass_loop] in H.
  - injection H as <- _ _. now rewrite app_nil_r.
  - destruct (reserved_param (p_py p)).
    + apply IH in H. rewrite H, <- app_assoc, !map_app. reflexivity.
    + destruct (dict_pop (p_py p) used) as [[j|] used'].
      * destruct (nth_error done j) as [c|] eqn:En; [|discriminate].
        destruct (mem_key (p_loc c, p_name c) m || mem_key (p_loc p, p_name p) m); [discriminate|].
        set (cp := if negb (loc_eqb (p_loc p) (p_loc c)) then _ else _) in H.
        assert (Hcp: param_key (fst cp) = param_key c /\ param_key (snd cp) = param_key p).
        { subst cp. destruct (negb _); [now split|]. now destruct (negb _). }
        apply IH in H. rewrite H, <- app_assoc, !map_app. cbn [map app]. rewrite (proj2 Hcp). f_equal.
        apply (update_nth_keys j c); [exact En | exact (proj1 Hcp)].
      * apply IH in H. rewrite H, <- app_assoc. reflexivity.
Qed.

Lemma check_params_run prefix ps r ev :
  check_params_ev prefix ps = Ok (r, ev) <-> check_params prefix ps = Ok r /\ g_last_pass_quiet prefix ps = negb ev.
Proof.
  unfold check_params, g_last_pass_quiet. destruct (check_params_ev prefix ps) as [[r' ev']|]; split; try easy.
  - now intros [= -> ->].
  - intros [[= ->] H]. now destruct ev, ev'.
Qed.

Lemma check_params_ev_last prefix ps r ev :
  check_params_ev prefix ps = Ok (r, ev) ->
  (exists ps0 m0 m', pass_loop prefix ps0 [] [] m0 false = Ok (r, m', ev)) /\ map param_key r = map param_key ps.
Proof.
  unfold check_params_ev. destruct (pass_loop prefix ps [] [] [] false) as [[[ps1 m1] ev1]|] eqn:E1; [|discriminate].
  pose proof (pass_keys _ _ _ _ _ _ _ _ _ E1) as K1. destruct (is_nil m1).
  - intros [= <- <-]. eauto.
  - destruct (pass_loop prefix ps1 [] [] m1 false) as [[[ps2 m2] ev2]|] eqn:E2; [|discriminate].
    intros [= <- <-]. split; [eauto|]. rewrite (pass_keys _ _ _ _ _ _ _ _ _ E2). exact K1.
Qed.

(* whenever the check succeeds and its LAST run of the loop met no reserved name and no conflict (run-time guard
   g_last_pass_quiet), all python names are pairwise distinct and none is client / url *)
Theorem params_distinct_quiet prefix ps out :
  check_params prefix ps = Ok out -> g_last_pass_quiet prefix ps = true ->
  NoDup (map p_py out) /\ forall p, In p out -> reserved_param (p_py p) = false.
Proof.
  intros H Hq. destruct (check_params_ev_last prefix ps out false) as [(ps0 & m0 & m' & E0) _]; [now apply check_params_run|].
  exact (proj2 (pass_quiet_run _ _ _ _ _ E0)).
Qed.

Theorem check_params_keys prefix ps out :
  check_params prefix ps = Ok out -> map param_key out = map param_key ps.
Proof.
  unfold check_params. destruct (check_params_ev prefix ps) as [[r ev]|] eqn:E; [|discriminate].
  intros [= <-]. exact (proj2 (check_params_ev_last _ _ _ _ E)).
Qed.

Definition is_res (p : param) : bool := reserved_param (p_py p).

Lemma param_fix_res prefix p : is_res p = true -> param_fix prefix p = param_suffix prefix p.
Proof. unfold is_res, param_fix. now intros ->. Qed.
Lemma param_fix_plain prefix p : is_res p = false -> param_fix prefix p = p.
Proof. unfold is_res, param_fix. now intros ->. Qed.

Lemma pass1_plain prefix : forall todo done0 used m ev,
  NoDup (map p_py (done0 ++ todo)) ->
  (forall k, In k (map fst used) -> In k (map p_py done0)) ->
  exists m',
  pass_loop prefix todo (map (param_fix prefix) done0) used m ev =
    Ok (map (param_fix prefix) (done0 ++ todo), m', ev || existsb is_res todo) /\
  (forall k, In k m' <-> In k (map param_key (filter is_res todo)) \/ In k m).
Proof.
  induction todo as [|p todo IH]; intros done0 used m ev Hnd Hused; cbn [pass_loop existsb filter].
  - exists m. rewrite app_nil_r, orb_false_r. split; [reflexivity | cbn [map In]; tauto].
  - assert (Hsplit: done0 ++ p :: todo = (done0 ++ [p]) ++ todo) by (now rewrite <- app_assoc).
    pose proof Hnd as Hnd'. rewrite Hsplit in Hnd' |- *. fold (is_res p). destruct (is_res p) eqn:Er.
    + destruct (IH (done0 ++ [p]) used ((p_loc p, p_name p) :: m) true Hnd') as [m' [H1 H2]].
      { intros k Hk. rewrite map_app. apply in_or_app. left. now apply Hused. }
      rewrite (map_app (param_fix prefix) done0 [p]) in H1. cbn [map] in H1. rewrite (param_fix_res _ _ Er) in H1.
      exists m'. rewrite orb_true_r. split; [exact H1|].
      intro k. rewrite H2. cbn [map In]. unfold param_key at 2. tauto.
    + (* p's python name is not in the dictionary: it is the name of no earlier parameter *)
      destruct (dict_pop (p_py p) used) as [r used1] eqn:Ep.
      assert (Hr: r = None).
      { apply (dict_pop_None _ _ _ _ Ep). intro Hin. apply Hused in Hin.
        rewrite map_app in Hnd. apply NoDup_remove_2 in Hnd. apply Hnd. apply in_or_app. now left. }
      subst r. specialize (IH (done0 ++ [p]) (dict_set (p_py p) (length (map (param_fix prefix) done0)) used) m ev Hnd').
      rewrite (map_app (param_fix prefix) done0 [p]) in IH. cbn [map] in IH. rewrite (param_fix_plain _ _ Er) in IH. apply IH.
      intros k Hk. apply dict_set_keys in Hk. rewrite map_app. apply in_or_app.
      destruct Hk as [->|Hk]; [right; now left | left; now apply Hused].
Qed.

Definition marked (m : list pkey) (q : param) : Prop := mem_key (param_key q) m = true.
Definition Rm (m : list pkey) (c p : param) : Prop := p_py c = p_py p -> marked m c \/ marked m p.
Fixpoint pairs_ok (m : list pkey) (l : list param) : Prop :=
  match l with [] => True | x :: r => (forall y, In y r -> Rm m x y) /\ pairs_ok m r end.
Definition used_ok (done : list param) (used : list (str * nat)) : Prop :=
  forall k j, In (k, j) used -> exists c, nth_error done j = Some c /\ p_py c = k.

(* if no name is reserved and every pair of equal names has a member already marked as modified, the run either fails or is quiet *)
Lemma pass_noevent prefix : forall todo done used m out m' ev',
  (forall p, In p todo -> is_res p = false) ->
  (forall c p, In c done -> In p todo -> Rm m c p) -> pairs_ok m todo -> used_ok done used ->
  pass_loop prefix todo done used m false = Ok (out, m', ev') -> ev' = false.
Proof.
  induction todo as [|p todo IH]; intros done used m out m' ev' Hres Hcross Hpairs Hused H; cbn [pass_loop] in H.
  - now injection H as _ _ <-.
  - assert (Er: reserved_param (p_py p) = false) by (apply (Hres p); now left).
    rewrite Er in H. destruct Hpairs as [Hp Hpairs].
    destruct (dict_pop (p_py p) used) as [[j|] used'] eqn:Ep.
    + apply dict_pop_Some in Ep. destruct (Hused _ _ Ep) as [c [Hc Hpy]]. rewrite Hc in H.
      assert (Hm: marked m c \/ marked m p).
      { apply Hcross; [eapply nth_error_In; exact Hc | now left | exact Hpy]. }
      unfold marked, param_key in Hm.
      destruct Hm as [Hm|Hm]; rewrite Hm in H; [discriminate|]. rewrite orb_true_r in H. discriminate.
    + apply IH in H; [exact H| | | exact Hpairs |].
      * intros q Hq. apply Hres. now right.
      * intros c q Hc Hq. apply in_app_or in Hc as [Hc|[<-|[]]].
        -- apply Hcross; [exact Hc | now right].
        -- now apply Hp.
      * intros k j Hin. apply dict_set_In in Hin as [[-> ->]|Hin].
        -- exists p. split; [|reflexivity]. rewrite nth_error_app2 by lia. now rewrite Nat.sub_diag.
        -- destruct (Hused _ _ Hin) as [c [Hc Hpy]]. exists c. split; [|exact Hpy].
           rewrite nth_error_app1; [exact Hc|]. apply nth_error_Some. congruence.
Qed.

Lemma pkey_eqb_eq a b : pkey_eqb a b = true <-> a = b.
Proof.
  destruct a as [la na], b as [lb nb]. unfold pkey_eqb. cbn [fst snd]. rewrite andb_true_iff, str_eqb_eq. split.
  - intros [Hl ->]. destruct la, lb; try discriminate; reflexivity.
  - intros [= -> ->]. split; [destruct lb|]; reflexivity.
Qed.

Lemma mem_key_In k m : mem_key k m = true <-> In k m.
Proof.
  unfold mem_key. rewrite existsb_exists. split.
  - intros [x [Hx He]]. apply pkey_eqb_eq in He. now subst.
  - intro H. exists k. split; [exact H|]. now apply pkey_eqb_eq.
Qed.

(* client_<location>, url_<location>: all eight in one evaluation, with the empty prefix, through the search trees of NamesFast *)
Lemma suffixed_table :
  forallb (fun v => str_eqb (python_identifier_f v []) v)
    (flat_map (fun s => map (fun l => s ++ [95] ++ loc_str l) [LPath; LQuery; LHeader; LCookie]) [s_client; s_url]) = true.
Proof. vm_compute. reflexivity. Qed.

Lemma suffixed_plain s l :
  reserved_param s = true ->
  fix_reserved (snake_case (sanitize (s ++ [95] ++ loc_str l))) = s ++ [95] ++ loc_str l.
Proof.
  intro H. rewrite <- (pi_nil _ false), <- python_identifier_f_eq. apply str_eqb_eq.
  apply (proj1 (forallb_forall _ _) suffixed_table), in_flat_map. exists s. split.
  - apply orb_true_iff in H. rewrite !str_eqb_eq in H. destruct H as [->| ->]; cbn [In]; auto.
  - apply (in_map (fun l => s ++ [95] ++ loc_str l)). destruct l; cbn [In]; auto 6.
Qed.

Lemma suffixed_not_reserved prefix s l :
  reserved_param s = true -> reserved_param (python_identifier (s ++ [95] ++ loc_str l) prefix false) = false.
Proof.
  intro H. rewrite pi_noprefix; rewrite (suffixed_plain s l H).
  (* the claim and the side condition of pi_noprefix: both by inspection of the eight names *)
  all: apply orb_true_iff in H as [H|H]; apply str_eqb_eq in H; subst s; destruct l; reflexivity.
Qed.

Lemma fix_not_reserved prefix p : is_res (param_fix prefix p) = false.
Proof.
  unfold param_fix. destruct (reserved_param (p_py p)) eqn:E; [|exact E].
  unfold is_res, param_suffix, set_py. cbn [p_py]. now apply suffixed_not_reserved.
Qed.

Lemma fix_key prefix p : param_key (param_fix prefix p) = param_key p.
Proof. unfold param_fix. destruct (reserved_param (p_py p)); reflexivity. Qed.

Lemma pairs_ok_fix prefix m : forall l,
  NoDup (map p_py l) -> (forall q, In q l -> is_res q = true -> In (param_key q) m) ->
  pairs_ok m (map (param_fix prefix) l).
Proof.
  induction l as [|x l IH]; intros Hnd Hm; cbn [map pairs_ok]; [exact I|].
  cbn [map] in Hnd. inversion Hnd as [|? ? Hx Hnd']; subst. split.
  - intros y' Hy'. apply in_map_iff in Hy' as [y [<- Hy]]. intro Epy.
    destruct (is_res x) eqn:Ex.
    + left. unfold marked. rewrite fix_key. apply mem_key_In. apply Hm; [now left | exact Ex].
    + destruct (is_res y) eqn:Ey.
      * right. unfold marked. rewrite fix_key. apply mem_key_In. apply Hm; [now right | exact Ey].
      * exfalso. rewrite (param_fix_plain _ _ Ex), (param_fix_plain _ _ Ey) in Epy. apply Hx. rewrite Epy. now apply in_map.
  - apply IH; [exact Hnd'|]. intros q Hq. apply Hm. now right.
Qed.

(* if the python names of all parameters are pairwise distinct to begin with (g_params_plain: no raw-name
   fallback and no location twin), then success of the check means: exactly the reserved names client / url were renamed
   (to client_<location> / url_<location>), and the resulting names are pairwise distinct and none is client or url. *)
Theorem params_distinct prefix ps out :
  g_params_plain ps = true -> check_params prefix ps = Ok out ->
  out = map (param_fix prefix) ps /\ NoDup (map p_py out) /\ forall p, In p out -> reserved_param (p_py p) = false.
Proof.
  intros G H. apply nodupb_NoDup in G.
  destruct (pass1_plain prefix ps [] [] [] false) as [m1 [E1 Hm1]]; [exact G | intros k [] |].
  cbn [app map orb] in E1.
  unfold check_params, check_params_ev in H. rewrite E1 in H.
  destruct m1 as [|k0 m1]; cbn [is_nil] in H.
  - injection H as <-.
    assert (Ee: existsb is_res ps = false).
    { destruct (existsb is_res ps) eqn:Ee; [|reflexivity]. apply existsb_exists in Ee as [q [Hq Hr]].
      destruct (proj2 (Hm1 (param_key q))). left. apply in_map, filter_In. now split. }
    rewrite Ee in E1. split; [reflexivity | exact (proj2 (pass_quiet_run _ _ _ _ _ E1))].
  - destruct (pass_loop prefix (map (param_fix prefix) ps) [] [] (k0 :: m1) false) as [[[ps2 m2] ev2]|] eqn:E2; [|discriminate].
    injection H as <-.
    assert (Hev: ev2 = false).
    { eapply pass_noevent; [| | | | exact E2].
      - intros p Hp. apply in_map_iff in Hp as [q [<- _]]. apply fix_not_reserved.
      - intros c p [].
      - apply pairs_ok_fix; [exact G|]. intros q Hq Hr. apply Hm1. left. apply in_map. apply filter_In. now split.
      - intros k j []. }
    subst ev2. exact (pass_quiet_run _ _ _ _ _ E2).
Qed.

(* iter_all_parameters only rearranges the parameters *)
Lemma order_params_perm : forall ps, Permutation (order_params ps) ps.
Proof.
  induction ps as [|p ps IH]; [constructor|]. unfold order_params, in_loc in *. cbn [filter].
  destruct (p_loc p); cbn [loc_eqb app]; symmetry.
  - apply perm_skip. now symmetry.
  - apply Permutation_cons_app. now symmetry.
  - rewrite app_assoc. apply Permutation_cons_app. rewrite <- app_assoc. now symmetry.
  - rewrite 2!app_assoc. apply Permutation_cons_app. rewrite <- 2!app_assoc. now symmetry.
Qed.

(* the statement for an operation's parameter list as written in the document *)
Theorem model_params_distinct prefix raw out :
  g_no_raw_fallback prefix (map snd raw) = true ->
  model_params prefix raw = Ok out ->
  NoDup (map p_py out) /\ (forall p, In p out -> reserved_param (p_py p) = false) /\
  (forall p, In p out -> In (p_loc p, p_name p) raw /\
     p_py p = if reserved_param (py_default prefix (p_name p))
              then python_identifier (py_default prefix (p_name p) ++ [95] ++ loc_str (p_loc p)) prefix false
              else python_identifier (p_name p) prefix false) /\
  length out = length raw.
Proof.
  intros G H. unfold model_params in H. set (ps := map (param_init prefix) raw) in *.
  pose proof (order_params_perm ps) as Hperm.
  assert (Gp: g_params_plain (order_params ps) = true).
  { apply nodupb_NoDup, (Permutation_NoDup (Permutation_map p_py (Permutation_sym Hperm))). apply nodupb_NoDup in G.
    unfold ps. rewrite map_map. rewrite map_map in G. exact G. }
  destruct (params_distinct prefix _ _ Gp H) as [Ho [Hnd Hres]].
  split; [exact Hnd|]. split; [exact Hres|]. split.
  - intros p Hp. rewrite Ho in Hp. apply in_map_iff in Hp as [q [<- Hq]]. apply (Permutation_in _ Hperm) in Hq.
    unfold ps in Hq. apply in_map_iff in Hq as [[l n] [<- Hx]]. unfold param_fix, param_init. cbn [fst snd p_py p_loc p_name].
    destruct (reserved_param (py_default prefix n)) eqn:Er; cbn [param_suffix set_py p_loc p_name p_py]; rewrite Er; split; auto.
  - rewrite Ho, map_length, (Permutation_length Hperm). apply map_length.
Qed.

(* The check with its two renamings as parameters.  At the renamings of the model it is check_params_ev; at their twins over the search
   trees of NamesFast it is what the witnesses below evaluate (rewrite with check_params_ev_f first). *)
Definition pass_loop_with (sfx raw : param -> param) :=
  fix go (todo done : list param) (used : list (str * nat)) (m : list pkey) (ev : bool) : res (list param * list pkey * bool) :=
  match todo with
  | [] => Ok (done, m, ev)
  | p :: todo' =>
    if reserved_param (p_py p) then go todo' (done ++ [sfx p]) used ((p_loc p, p_name p) :: m) true
    else
      match dict_pop (p_py p) used with
      | (None, _) => go todo' (done ++ [p]) (dict_set (p_py p) (length done) used) m ev
      | (Some j, used') =>
        match nth_error done j with
        | None => Err
        | Some c =>
          if mem_key (p_loc c, p_name c) m || mem_key (p_loc p, p_name p) m then Err
          else
            let cp := if negb (loc_eqb (p_loc p) (p_loc c)) then (sfx c, sfx p)
                      else if negb (str_eqb (p_name c) (p_name p)) then (raw c, raw p) else (c, p) in
            go todo' (update_nth j (fst cp) done ++ [snd cp])
               (dict_set (p_py (fst cp)) j (dict_set (p_py (snd cp)) (length done) used'))
               ((p_loc c, p_name c) :: (p_loc p, p_name c) :: m) true
        end
      end
  end.

Definition check_params_ev_with (loop : list param -> list param -> list (str * nat) -> list pkey -> bool -> res (list param * list pkey * bool))
  (ps : list param) : res (list param * bool) :=
  match loop ps [] [] [] false with
  | Err => Err
  | Ok (ps1, m1, ev1) =>
    if is_nil m1 then Ok (ps1, ev1)
    else match loop ps1 [] [] m1 false with Err => Err | Ok (ps2, _, ev2) => Ok (ps2, ev2) end
  end.

Definition param_suffix_f (prefix : str) (p : param) : param :=
  set_py p (python_identifier_f (p_py p ++ [95] ++ loc_str (p_loc p)) prefix).
Definition param_raw_f (prefix : str) (p : param) : param := set_py p (python_identifier_raw_f (p_name p) prefix).

Lemma pass_loop_f prefix : forall todo done used m ev,
  pass_loop prefix todo done used m ev = pass_loop_with (param_suffix_f prefix) (param_raw_f prefix) todo done used m ev.
Proof.
  assert (Hs: forall p, param_suffix_f prefix p = param_suffix prefix p)
    by (intro p; unfold param_suffix_f, param_suffix; now rewrite python_identifier_f_eq).
  assert (Hr: forall p, param_raw_f prefix p = param_raw prefix p)
    by (intro p; unfold param_raw_f, param_raw, py_raw; now rewrite python_identifier_raw_f_eq).
  induction todo as [|p todo IH]; intros done used m ev; cbn [pass_loop pass_loop_with]; [reflexivity|].
  destruct (reserved_param (p_py p)); [now rewrite Hs, IH|].
  destruct (dict_pop (p_py p) used) as [[j|] used']; [|apply IH].
  destruct (nth_error done j) as [c|]; [|reflexivity].
  destruct (mem_key (p_loc c, p_name c) m || mem_key (p_loc p, p_name p) m); [reflexivity|].
  cbv zeta. now rewrite !Hs, !Hr, IH.
Qed.

Lemma check_params_ev_f prefix ps :
  check_params_ev prefix ps = check_params_ev_with (pass_loop_with (param_suffix_f prefix) (param_raw_f prefix)) ps.
Proof.
  unfold check_params_ev, check_params_ev_with. rewrite pass_loop_f.
  destruct (pass_loop_with _ _ ps [] [] [] false) as [[[ps1 m1] ev1]|]; [|reflexivity]. now rewrite pass_loop_f.
Qed.

(* param_rename_unchecked: path x_header_path, path x_header, query X, header x.  First run: X/x collide -> x_query, x_header (only the
   pair (header, X) and (query, X) is marked: the header parameter x is NOT).  Second (last) run: x_header now collides with the path
   parameter x_header -> x_header_path / x_header_header, never compared with the first parameter: two parameters are called x_header_path *)
Theorem params_distinct_refuted :
  exists raw out, NoDup raw /\ model_params [102;105;101;108;100;95] raw = Ok out /\
    g_last_pass_quiet [102;105;101;108;100;95] (order_params (map (param_init [102;105;101;108;100;95]) raw)) = false /\
    ~ NoDup (map p_py out).
Proof.
  exists [(LPath, [120;95;104;101;97;100;101;114;95;112;97;116;104]); (LPath, [120;95;104;101;97;100;101;114]); (LQuery, [88]); (LHeader, [120])].
  eexists. split; [|apply and_assoc; split].
  - repeat constructor; cbn [In]; intuition discriminate.
  - (* result and guard from one evaluation of check_params_ev *)
    unfold model_params. refine (proj1 (check_params_run _ _ _ true) _).
    rewrite check_params_ev_f, (map_ext _ _ (param_init_f _)). vm_compute. reflexivity.
  - intro H. apply nodupb_NoDup in H. discriminate.
Qed.

Lemma check_params_pys prefix ps r ev pys :
  check_params_ev prefix ps = Ok (r, ev) -> pys = map p_py r ->
  param_pys (check_params prefix ps) = Ok pys /\ g_last_pass_quiet prefix ps = negb ev.
Proof. intros E ->. now destruct (proj1 (check_params_run _ _ _ _) E) as [-> ->]. Qed.

(* non-vacuity: the reserved names are renamed, location twins get suffixes, and the guards hold *)
Example params_distinct_nonvacuous :
  param_pys (model_params [102;105;101;108;100;95] [(LQuery, s_client); (LPath, s_url); (LHeader, [105;100])]) =
    Ok [s_url ++ [95;112;97;116;104]; s_client ++ [95;113;117;101;114;121]; [105;100]] /\
  g_no_raw_fallback [102;105;101;108;100;95] [s_client; s_url; [105;100]] = true /\
  param_pys (model_params [102;105;101;108;100;95] [(LQuery, [105;100]); (LPath, [105;100])]) =
    Ok [[105;100;95;112;97;116;104]; [105;100;95;113;117;101;114;121]] /\
  g_last_pass_quiet [102;105;101;108;100;95] (order_params (map (param_init [102;105;101;108;100;95]) [(LQuery, [105;100]); (LPath, [105;100])])) = true.
Proof.
  split; [unfold model_params, check_params; rewrite check_params_ev_f, (map_ext _ _ (param_init_f _)); vm_compute; reflexivity|].
  split; [rewrite g_no_raw_fallback_f; vm_compute; reflexivity|].
  refine (check_params_pys _ _ _ false _ _ _).
  - rewrite check_params_ev_f, (map_ext _ _ (param_init_f _)). vm_compute. reflexivity.
  - reflexivity.
Qed.

(* whichever of the two lists are present, in whatever proportion the parameters are split between them:
   if no error is returned and the last run of the last executed check was quiet, the python names of ALL parameters of the operation
   are pairwise distinct and none is client / url *)
Theorem model_params2_distinct_quiet prefix op item out :
  model_params2 prefix op item = Ok out -> g_params2_quiet prefix op item = true ->
  NoDup (map p_py out) /\ forall p, In p out -> reserved_param (p_py p) = false.
Proof.
  unfold model_params2, g_params2_quiet. destruct (params_phase1 prefix op) as [ps1|] eqn:E1; [|discriminate].
  destruct item as [it|].
  - intros H G. exact (params_distinct_quiet _ _ _ H G).
  - intros [= <-] G. destruct op as [l|]; cbn [params_phase1] in E1.
    + unfold model_params in E1. exact (params_distinct_quiet _ _ _ E1 G).
    + injection E1 as <-. split; [constructor | intros p []].
Qed.

(* static guard: the python names entering the last check (those the first check left on the operation-level parameters, default names
   for the path-item ones) are pairwise distinct: then only client / url are renamed by it and the result is pairwise distinct *)
Theorem model_params2_distinct prefix op it ps1 out :
  params_phase1 prefix op = Ok ps1 -> g_params_plain (phase2_input prefix ps1 it) = true ->
  model_params2 prefix op (Some it) = Ok out ->
  out = map (param_fix prefix) (phase2_input prefix ps1 it) /\ NoDup (map p_py out) /\
  forall p, In p out -> reserved_param (p_py p) = false.
Proof.
  intros E1 G H. unfold model_params2 in H. rewrite E1 in H. exact (params_distinct _ _ _ G H).
Qed.

(* the parameters of the result are exactly the operation-level ones plus the path-item ones not shadowed by them *)
Theorem model_params2_keys prefix op it ps1 out :
  params_phase1 prefix op = Ok ps1 -> model_params2 prefix op (Some it) = Ok out ->
  map param_key out = map param_key (phase2_input prefix ps1 it).
Proof.
  intros E1 H. unfold model_params2 in H. rewrite E1 in H. exact (check_params_keys _ _ _ H).
Qed.

Lemma model_params2_run prefix op it ps1 r ev pys :
  params_phase1 prefix op = Ok ps1 -> check_params_ev prefix (phase2_input prefix ps1 it) = Ok (r, ev) -> pys = map p_py r ->
  param_pys (model_params2 prefix op (Some it)) = Ok pys /\ g_params2_quiet prefix op (Some it) = negb ev.
Proof.
  intros E1 E2 E. unfold model_params2, g_params2_quiet. rewrite E1. exact (check_params_pys _ _ _ _ _ E2 E).
Qed.

(* non-vacuity: path item [header user_id] + operation [query userId, query limit]: the lone path-item parameter IS compared with the
   operation-level ones (user_id_query, limit, user_id_header); a lone path-item parameter client / url is renamed *)
Example model_params2_nonvacuous :
  let uid := [117;115;101;114;95;105;100] in
  param_pys (model_params2 [102;105;101;108;100;95] (Some [(LQuery, [117;115;101;114;73;100]); (LQuery, [108;105;109;105;116])]) (Some [(LHeader, uid)])) =
    Ok [uid ++ [95;113;117;101;114;121]; [108;105;109;105;116]; uid ++ [95;104;101;97;100;101;114]] /\
  g_params2_quiet [102;105;101;108;100;95] (Some [(LQuery, [117;115;101;114;73;100]); (LQuery, [108;105;109;105;116])]) (Some [(LHeader, uid)]) = true /\
  param_pys (model_params2 [102;105;101;108;100;95] None (Some [(LQuery, s_client)])) = Ok [s_client ++ [95;113;117;101;114;121]] /\
  param_pys (model_params2 [102;105;101;108;100;95] (Some [(LQuery, s_url)]) None) = Ok [s_url ++ [95;113;117;101;114;121]].
Proof.
  intro uid. apply and_assoc. split.
  2: { unfold model_params2, model_params, phase2_input, check_params. cbn [params_phase1].
       rewrite !check_params_ev_f, !(map_ext _ _ (param_init_f _)). vm_compute. split; reflexivity. }
  refine (model_params2_run _ _ _ _ _ false _ _ _ _).
  - cbn [params_phase1]. unfold model_params, check_params.
    rewrite check_params_ev_f, (map_ext _ _ (param_init_f _)). vm_compute. reflexivity.
  - unfold phase2_input. rewrite check_params_ev_f, (map_ext _ _ (param_init_f _)). vm_compute. reflexivity.
  - reflexivity.
Qed.

Print Assumptions model_params2_distinct_quiet.
Print Assumptions model_params2_distinct.

Lemma cdecl_eq_dec (a b : cdecl) : {a = b} + {a <> b}.
Proof.
  assert (Hs: forall x y : str, {x = y} + {x <> y}) by apply (list_eq_dec N.eq_dec).
  assert (He: forall x y : evalue, {x = y} + {x <> y}) by (decide equality; apply Z.eq_dec).
  decide equality; apply (list_eq_dec He).
Qed.

Theorem add_class_fresh prefix cs n cs' :
  add_class prefix cs n = Ok cs' -> ~ In (class_of prefix n) cs /\ cs' = cs ++ [class_of prefix n].
Proof.
  unfold add_class. destruct (mem_str (class_of prefix n) cs) eqn:E; [discriminate|].
  intros [= <-]. split; [now apply mem_str_false|reflexivity].
Qed.

Lemma add_classes_inv prefix : forall names cs errs cs' errs',
  add_classes prefix cs errs names = (cs', errs') ->
  (NoDup cs -> NoDup cs') /\
  (forall c, In c cs' <-> In c cs \/ In c (map (class_of prefix) names)) /\
  (forall n, In n errs' -> In n errs \/ In n names) /\ (forall n, In n errs -> In n errs') /\
  (length cs' + length errs' = length cs + length errs + length names)%nat.
Proof.
  induction names as [|n names IH]; intros cs errs cs' errs' H; cbn [add_classes] in H.
  - injection H as <- <-. cbn [map In length]. split; [auto|]. split; [tauto|]. split; [auto|]. split; [auto|lia].
  - unfold add_class in H. destruct (mem_str (class_of prefix n) cs) eqn:E;
      apply IH in H as [H1 [H2 [H3 [H4 H5]]]]; clear IH; rewrite app_length in H5; cbn [length map In] in H5 |- *.
    + (* class name taken: n is reported *)
      apply mem_str_In in E. split; [exact H1|]. split; [|split; [|split; [|lia]]].
      * intro c. rewrite H2. split; [tauto | intros [Hc|[<-|Hc]]; auto].
      * intros x Hx. apply H3 in Hx as [Hx|Hx]; [|auto]. apply in_app_or in Hx as [Hx|[Hx|[]]]; auto.
      * intros x Hx. apply H4, in_or_app. now left.
    + apply mem_str_false in E. split; [intro Hnd; apply H1; now apply NoDup_snoc|]. split; [|split; [|split; [exact H4|lia]]].
      * intro c. rewrite H2, in_app_iff. cbn [In]. tauto.
      * intros x Hx. apply H3 in Hx as [Hx|Hx]; auto.
Qed.

Lemma add_classes_dup_reported prefix n : forall names cs errs cs' errs',
  In (class_of prefix n) cs -> add_classes prefix cs errs (n :: names) = (cs', errs') -> In n errs'.
Proof.
  intros names cs errs cs' errs' Hin H. cbn [add_classes] in H. unfold add_class in H.
  apply mem_str_In in Hin. rewrite Hin in H. apply add_classes_inv in H as [_ [_ [_ [H4 _]]]]. apply H4, in_or_app. right. now left.
Qed.

Lemma add_classes_app prefix : forall a b cs errs,
  add_classes prefix cs errs (a ++ b) = let r := add_classes prefix cs errs a in add_classes prefix (fst r) (snd r) b.
Proof.
  induction a as [|n a IH]; intros b cs errs; cbn [app add_classes]; [reflexivity|].
  destruct (add_class prefix cs n); apply IH.
Qed.

(* the generated class names are pairwise distinct; every schema is either generated under its derived
   class name or reported; and of two schemas with the same derived ClassName the later one is always reported *)
Theorem classes_distinct_or_error prefix names cs errs :
  model_classes prefix names = (cs, errs) ->
  NoDup cs /\
  (forall n, In n names -> In (class_of prefix n) cs) /\
  (forall c, In c cs -> exists n, In n names /\ c = class_of prefix n) /\
  (forall n, In n errs -> In n names) /\
  (length cs + length errs = length names)%nat /\
  (forall l1 n1 l2 n2 l3, names = l1 ++ n1 :: l2 ++ n2 :: l3 -> class_of prefix n1 = class_of prefix n2 -> In n2 errs).
Proof.
  unfold model_classes. intro H. pose proof (add_classes_inv _ _ _ _ _ _ H) as [H1 [H2 [H3 [_ H5]]]].
  split; [apply H1; constructor|].
  split; [intros n Hn; apply H2; right; now apply in_map|].
  split; [intros c Hc; apply H2 in Hc as [[]|Hc]; apply in_map_iff in Hc as [n [<- Hn]]; now exists n|].
  split; [intros n Hn; apply H3 in Hn as [[]|Hn]; exact Hn|]. split; [cbn [length] in H5; lia|].
  intros l1 n1 l2 n2 l3 -> Ec.
  replace (l1 ++ n1 :: l2 ++ n2 :: l3) with ((l1 ++ n1 :: l2) ++ n2 :: l3) in H by (now rewrite <- app_assoc).
  rewrite add_classes_app in H. cbv zeta in H.
  destruct (add_classes prefix [] [] (l1 ++ n1 :: l2)) as [cs1 e1] eqn:E1. cbn [fst snd] in H.
  eapply add_classes_dup_reported; [|exact H].
  apply add_classes_inv in E1 as [_ [G2 _]]. rewrite <- Ec. apply G2. right. apply in_map, in_or_app. right. now left.
Qed.

(* module names are NOT checked: schemas AB and Ab give the distinct classes AB and Ab, no error, and ONE module file ab.py
   (known finding module_collision_order) *)
Theorem modules_unchecked_refuted :
  exists names cs, model_classes [102;105;101;108;100;95] names = (cs, []) /\ NoDup cs /\ length cs = length names /\
    ~ NoDup (map (module_of [102;105;101;108;100;95]) cs).
Proof.
  exists [[65;66]; [65;98]]. eexists. split; [vm_compute; reflexivity|]. split; [|split; [reflexivity|]].
  - apply nodupb_NoDup. vm_compute. reflexivity.
  - intro H. apply nodupb_NoDup in H. vm_compute in H. discriminate.
Qed.

Example classes_dup_reported_nonvacuous :
  model_classes [102;105;101;108;100;95] [[97;32;98]; [97;95;98]; [99]] = ([[65;66]; [67]], [[97;95;98]]).
Proof. vm_compute. reflexivity. Qed.

Print Assumptions attrs_distinct.
Print Assumptions attrs_last_pair_distinct.
Print Assumptions conflict_check_terminates.
Print Assumptions params_distinct_quiet.
Print Assumptions params_distinct.
Print Assumptions model_params_distinct.
Print Assumptions classes_distinct_or_error.

(* elookup and clookup are one function at two value types: the facts are proved for this one and hold of both by conversion *)
Definition alookup {V} : str -> list (str * V) -> option V :=
  fix go k m := match m with [] => None | (k', v) :: m' => if str_eqb k' k then Some v else go k m' end.

Lemma alookup_Some_In {V} k (v : V) : forall m, alookup k m = Some v -> In (k, v) m.
Proof.
  induction m as [|[k' v'] m IH]; cbn; [discriminate|].
  destruct (str_eqb_spec k' k) as [->|_]; [intros [= <-]; now left | intro H; right; auto].
Qed.

Lemma alookup_None {V} k : forall m : list (str * V), alookup k m = None <-> ~ In k (map fst m).
Proof.
  induction m as [|[k' v'] m IH]; cbn; [tauto|].
  destruct (str_eqb_spec k' k) as [->|Hne]; [|rewrite IH; tauto].
  split; [discriminate | intro H; exfalso; apply H; now left].
Qed.

Lemma alookup_In_nodup {V} k (v : V) m : NoDup (map fst m) -> In (k, v) m -> alookup k m = Some v.
Proof.
  intros Hnd Hin. destruct (alookup k m) as [v'|] eqn:E.
  - apply alookup_Some_In in E. now injection (NoDup_map_inj fst m Hnd (k, v') (k, v) E Hin eq_refl) as ->.
  - apply alookup_None in E. destruct E. apply (in_map fst _ _ Hin).
Qed.

Lemma elookup_Some_In k v m : elookup k m = Some v -> In (k, v) m.
Proof. exact (alookup_Some_In k v m). Qed.
Lemma elookup_None k m : elookup k m = None <-> ~ In k (map fst m).
Proof. exact (alookup_None k m). Qed.
Lemma elookup_In_nodup k v m : NoDup (map fst m) -> In (k, v) m -> elookup k m = Some v.
Proof. exact (alookup_In_nodup k v m). Qed.
Lemma clookup_None c tab : clookup c tab = None <-> ~ In c (map fst tab).
Proof. exact (alookup_None c tab). Qed.
Lemma clookup_In_nodup c e tab : NoDup (map fst tab) -> In (c, e) tab -> clookup c tab = Some e.
Proof. exact (alookup_In_nodup c e tab). Qed.

Lemma table_eqb_equiv a b : NoDup (map fst a) -> table_eqb a b = true -> tbl_equiv a b.
Proof.
  intros Ha H. unfold table_eqb in H. apply andb_true_iff in H as [Hl Hf]. apply Nat.eqb_eq in Hl.
  rewrite forallb_forall in Hf.
  assert (Hkeys: forall k v, In (k, v) a -> elookup k b = Some v).
  { intros k v Hin. specialize (Hf _ Hin). cbn [fst snd] in Hf. destruct (elookup k b) as [v'|]; [|discriminate].
    apply evalue_eqb_eq in Hf. now subst. }
  assert (Hincl: incl (map fst b) (map fst a)).
  { apply NoDup_length_incl; [exact Ha | rewrite !map_length; lia |].
    intros k Hk. apply in_map_iff in Hk as [[k' v] [<- Hin]]. cbn [fst].
    apply Hkeys in Hin. apply elookup_Some_In in Hin. apply in_map_iff. exists (k', v). now split. }
  intro k. destruct (elookup k a) as [v|] eqn:Ea.
  - apply elookup_Some_In in Ea. symmetry. now apply Hkeys.
  - symmetry. apply elookup_None. intro Hk. apply Hincl in Hk. apply elookup_None in Ea. contradiction.
Qed.

Lemma tbl_equiv_In a b : NoDup (map fst a) -> NoDup (map fst b) -> tbl_equiv a b ->
  forall k v, In (k, v) a <-> In (k, v) b.
Proof.
  intros Ha Hb He k v. split; intros H.
  - apply elookup_Some_In. rewrite <- He. apply elookup_In_nodup; assumption.
  - apply elookup_Some_In. rewrite He. apply elookup_In_nodup; assumption.
Qed.

Lemma clookup_snoc c c0 e0 : forall tab,
  clookup c (tab ++ [(c0, e0)]) = match clookup c tab with Some x => Some x | None => if str_eqb c0 c then Some e0 else None end.
Proof.
  induction tab as [|[c' e'] tab IH]; cbn [app clookup]; [reflexivity|].
  destruct (str_eqb c' c); [reflexivity|exact IH].
Qed.

Lemma creplace_keys c e : forall tab, map fst (creplace c e tab) = map fst tab.
Proof.
  induction tab as [|[c' e'] tab IH]; cbn [creplace map fst]; [reflexivity|].
  destruct (str_eqb c' c); cbn [map fst]; [reflexivity | now rewrite IH].
Qed.

Lemma clookup_creplace c e c1 : forall tab,
  clookup c1 (creplace c e tab) = match clookup c1 tab with Some x => if str_eqb c c1 then Some e else Some x | None => None end.
Proof.
  induction tab as [|[c' e'] tab IH]; cbn [creplace clookup]; [reflexivity|].
  destruct (str_eqb c' c) eqn:E; cbn [clookup].
  - apply str_eqb_eq in E. subst c'. destruct (str_eqb c c1) eqn:E1; [reflexivity|].
    destruct (clookup c1 tab); reflexivity.
  - destruct (str_eqb c' c1) eqn:E1; [|exact IH].
    destruct (str_eqb c c1) eqn:E2; [|reflexivity].
    apply str_eqb_eq in E1, E2. subst. rewrite str_eqb_refl in E. discriminate.
Qed.

(* classes_by_name = {**classes_by_name, c: e}: the entry is replaced in place or appended *)
Definition cset (c : str) (e : centry) (tab : list (str * centry)) : list (str * centry) :=
  match clookup c tab with None => tab ++ [(c, e)] | Some _ => creplace c e tab end.

Lemma clookup_cset c e tab c1 : clookup c1 (cset c e tab) = if str_eqb c c1 then Some e else clookup c1 tab.
Proof.
  unfold cset. destruct (clookup c tab) eqn:Ec; [rewrite clookup_creplace | rewrite clookup_snoc];
    destruct (str_eqb_spec c c1) as [<-|_]; rewrite ?Ec; try reflexivity; now destruct (clookup c1 tab).
Qed.

Lemma cset_NoDup c e tab : NoDup (map fst tab) -> NoDup (map fst (cset c e tab)).
Proof.
  unfold cset. destruct (clookup c tab) eqn:Ec; intro H; [now rewrite creplace_keys|].
  rewrite map_app. apply NoDup_snoc; [exact H | now apply clookup_None].
Qed.

Lemma tbl_equiv_refl a : tbl_equiv a a.
Proof. intro k. reflexivity. Qed.
Lemma tbl_equiv_trans a b c : tbl_equiv a b -> tbl_equiv b c -> tbl_equiv a c.
Proof. intros H1 H2 k. now rewrite H1. Qed.
Lemma tbl_equiv_sym a b : tbl_equiv a b -> tbl_equiv b a.
Proof. intros H k. now rewrite H. Qed.

(* non-vacuity: FooBar = [on, off] then foo_bar = [ON, OFF] (same member names ON / OFF, different values) -> the second is reported;
   an equal twin is shared; a model of the same class name is reported *)
Example enum_classes_nonvacuous :
  let on := [111;110] in let off := [111;102;102] in let ON := [79;78] in let OFF := [79;70;70] in
  let foobar := [70;111;111;66;97;114] in let foo_bar := [102;111;111;95;98;97;114] in
  model_decls [102;105;101;108;100;95] [DEnum [] foobar [EStr on; EStr off]; DEnum [] foo_bar [EStr ON; EStr OFF];
                                       DEnum [70;111;111] [98;97;114] [EStr off; EStr on]; DModel foo_bar] =
    Some ([(foobar, CEnum [([79;70;70], EStr off); ([79;78], EStr on)])],
          [DEnum [] foo_bar [EStr ON; EStr OFF]; DModel foo_bar]).
Proof. vm_compute. reflexivity. Qed.

Section DeclsGeneric.
Variable tbl : list evalue -> option (list (str * evalue)).
Hypothesis tbl_nodup : forall vs t, tbl vs = Some t -> NoDup (map fst t).

(* a surviving declaration is represented by the entry under its class name (seen: the declarations folded so far) *)
Definition entry_matches_g (d : cdecl) (e : option centry) : Prop :=
  match decl_table_g tbl d with
  | Some t1 => exists t', e = Some (CEnum t') /\ tbl_equiv t1 t'
  | None => e = Some CModel
  end.

Definition decls_inv_g (prefix : str) (tab : list (str * centry)) (errs seen : list cdecl) : Prop :=
  NoDup (map fst tab) /\
  (forall c t, clookup c tab = Some (CEnum t) -> exists d, In d seen /\ decl_class prefix d = c /\ decl_table_g tbl d = Some t) /\
  (forall d, In d seen -> ~ In d errs -> entry_matches_g d (clookup (decl_class prefix d) tab)) /\
  (forall d, In d errs -> In d seen) /\
  (forall p n vs, In (DEnum p n vs) seen -> tbl vs <> None).

Lemma decl_table_nodup d t : decl_table_g tbl d = Some t -> NoDup (map fst t).
Proof. destruct d; [discriminate | apply tbl_nodup]. Qed.

Definition decl_entry (d : cdecl) : centry :=
  match decl_table_g tbl d with Some t => CEnum t | None => CModel end.

Lemma entry_matches_own d : entry_matches_g d (Some (decl_entry d)).
Proof.
  unfold entry_matches_g, decl_entry. destruct (decl_table_g tbl d) as [t|]; [|reflexivity].
  exists t. split; [reflexivity | apply tbl_equiv_refl].
Qed.

Lemma add_decl_g_defined prefix tab p n vs r : add_decl_g tbl prefix tab (DEnum p n vs) = Some r -> tbl vs <> None.
Proof. unfold add_decl_g. now destruct (tbl vs). Qed.

Lemma add_decl_g_Ok prefix tab d tab1 :
  add_decl_g tbl prefix tab d = Some (Ok tab1) ->
  tab1 = cset (decl_class prefix d) (decl_entry d) tab /\
  forall old, clookup (decl_class prefix d) tab = Some old ->
    exists t t', decl_table_g tbl d = Some t /\ old = CEnum t' /\ table_eqb t t' = true.
Proof.
  unfold add_decl_g, cset, decl_entry. cbv zeta. destruct d as [n|p n vs]; cbn [decl_table_g].
  - destruct (clookup _ tab); [discriminate|]. intros [= <-]. split; [reflexivity | discriminate].
  - destruct (tbl vs) as [t|]; [|discriminate]. destruct (clookup _ tab) as [[|t']|]; try discriminate.
    + destruct (table_eqb t t') eqn:E; [|discriminate]. intros [= <-]. split; [reflexivity|].
      intros old [= <-]. now exists t, t'.
    + intros [= <-]. split; [reflexivity | discriminate].
Qed.

Lemma decls_inv_accept prefix tab errs seen d tab1 :
  decls_inv_g prefix tab errs seen -> add_decl_g tbl prefix tab d = Some (Ok tab1) ->
  decls_inv_g prefix tab1 errs (seen ++ [d]).
Proof.
  intros [I1 [I2 [I3 [I4 I5]]]] Ed. destruct (add_decl_g_Ok _ _ _ _ Ed) as [-> Hold].
  split; [now apply cset_NoDup|]. split; [|split; [|split]].
  - intros c1 t. rewrite clookup_cset. destruct (str_eqb_spec (decl_class prefix d) c1) as [<-|_].
    + intros [= E]. exists d. split; [apply in_or_app; right; now left|]. split; [reflexivity|].
      unfold decl_entry in E. destruct (decl_table_g tbl d); [now injection E as -> | discriminate].
    + intro Hl. destruct (I2 _ _ Hl) as [x [Hx Hy]]. exists x. split; [apply in_or_app; now left | exact Hy].
  - intros x Hx Hnx. rewrite clookup_cset.
    destruct (str_eqb_spec (decl_class prefix d) (decl_class prefix x)) as [Ec|Hne].
    + apply in_app_or in Hx as [Hx|[<-|[]]]; [|apply entry_matches_own].
      (* an earlier declaration of d's class name: its entry was an enum table equal to d's *)
      specialize (I3 x Hx Hnx). rewrite <- Ec in I3. unfold entry_matches_g in *.
      destruct (clookup (decl_class prefix d) tab) as [old|] eqn:El.
      * destruct (Hold old eq_refl) as [t [t' [Et [-> Eq]]]].
        apply table_eqb_equiv in Eq; [|exact (decl_table_nodup _ _ Et)].
        unfold decl_entry. rewrite Et. destruct (decl_table_g tbl x) as [t1|]; [|discriminate].
        destruct I3 as [t2 [[= <-] He]]. exists t. split; [reflexivity|].
        eapply tbl_equiv_trans; [exact He | now apply tbl_equiv_sym].
      * destruct (decl_table_g tbl x); [destruct I3 as [? [? _]]|]; discriminate.
    + apply in_app_or in Hx as [Hx|[<-|[]]]; [now apply I3 | now destruct Hne].
  - intros x Hx. apply in_or_app. left. now apply I4.
  - intros p n vs Hin. apply in_app_or in Hin as [Hin|[->|[]]]; [now apply (I5 p n) | exact (add_decl_g_defined _ _ _ _ _ _ Ed)].
Qed.

Lemma decls_inv_reject prefix tab errs seen d :
  decls_inv_g prefix tab errs seen -> add_decl_g tbl prefix tab d = Some Err ->
  decls_inv_g prefix tab (errs ++ [d]) (seen ++ [d]).
Proof.
  intros [I1 [I2 [I3 [I4 I5]]]] Ed. split; [exact I1|]. split; [|split; [|split]].
  - intros c t Hl. destruct (I2 _ _ Hl) as [x [Hx Hy]]. exists x. split; [apply in_or_app; now left | exact Hy].
  - intros x Hx Hnx. rewrite in_app_iff in Hx, Hnx. cbn [In] in Hx, Hnx. apply I3; tauto.
  - intros x Hx. specialize (I4 x). rewrite in_app_iff in *. cbn [In] in *. tauto.
  - intros p n vs Hin. apply in_app_or in Hin as [Hin|[->|[]]]; [now apply (I5 p n) | exact (add_decl_g_defined _ _ _ _ _ _ Ed)].
Qed.

Lemma add_decls_inv_g prefix : forall ds tab errs seen tab' errs',
  decls_inv_g prefix tab errs seen ->
  add_decls_g tbl prefix tab errs ds = Some (tab', errs') ->
  decls_inv_g prefix tab' errs' (seen ++ ds).
Proof.
  induction ds as [|d ds IH]; intros tab errs seen tab' errs' Inv H; cbn [add_decls_g] in H.
  - injection H as <- <-. now rewrite app_nil_r.
  - replace (seen ++ d :: ds) with ((seen ++ [d]) ++ ds) by (now rewrite <- app_assoc).
    destruct (add_decl_g tbl prefix tab d) as [[tab1|]|] eqn:Ed; [| |discriminate]; (eapply IH; [|exact H]).
    + exact (decls_inv_accept _ _ _ _ _ _ Inv Ed).
    + exact (decls_inv_reject _ _ _ _ _ Inv Ed).
Qed.

Lemma model_decls_inv_g prefix ds tab errs :
  model_decls_g tbl prefix ds = Some (tab, errs) -> decls_inv_g prefix tab errs ds.
Proof.
  apply (add_decls_inv_g prefix ds [] [] []).
  split; [constructor|]. split; [discriminate|]. split; [intros d []|]. split; [intros d [] | intros ? ? ? []].
Qed.

(* over any list of class-minting declarations (object schemas and enums, in processing order), if the generator does not crash:
   class names are pairwise distinct; the member table of every generated enum class is exactly the table of one declared value list
   of that class name; every declaration is reported or represented; two unreported enums with one class name have the same member
   names with the same values (they share the class); an enum and a model with one class name are never both kept *)
Theorem decls_distinct_or_shared_g prefix ds tab errs :
  model_decls_g tbl prefix ds = Some (tab, errs) ->
  NoDup (map fst tab) /\
  (forall c t, In (c, CEnum t) tab ->
     exists p n vs, In (DEnum p n vs) ds /\ decl_class prefix (DEnum p n vs) = c /\ tbl vs = Some t) /\
  (forall d, In d ds -> In d errs \/ exists e, clookup (decl_class prefix d) tab = Some e) /\
  (forall d1 d2 t1 t2, In d1 ds -> In d2 ds -> decl_class prefix d1 = decl_class prefix d2 ->
     decl_table_g tbl d1 = Some t1 -> decl_table_g tbl d2 = Some t2 -> ~ In d1 errs -> ~ In d2 errs -> tbl_equiv t1 t2) /\
  (forall n d2 t2, In (DModel n) ds -> In d2 ds -> decl_class prefix (DModel n) = decl_class prefix d2 ->
     decl_table_g tbl d2 = Some t2 -> In (DModel n) errs \/ In d2 errs) /\
  (forall d, In d errs -> In d ds).
Proof.
  intro H. destruct (model_decls_inv_g _ _ _ _ H) as [I1 [I2 [I3 [I4 I5]]]].
  assert (Hdec: forall d, In d errs \/ ~ In d errs) by (intro d; destruct (in_dec cdecl_eq_dec d errs); auto).
  split; [exact I1|]. split; [|split; [|split; [|split]]].
  - intros c t Hin. apply (clookup_In_nodup _ _ _ I1) in Hin. destruct (I2 _ _ Hin) as [d [Hd [Hc Ht]]].
    destruct d as [|p n vs]; [discriminate|]. exists p, n, vs. auto.
  - intros d Hd. destruct (Hdec d) as [He|He]; [now left|right]. specialize (I3 d Hd He). unfold entry_matches_g in I3.
    destruct (decl_table_g tbl d) eqn:Et.
    + destruct I3 as [t' [-> _]]. eauto.
    + eauto.
  - intros d1 d2 t1 t2 H1 H2 Ec E1 E2 N1 N2. pose proof (I3 d1 H1 N1) as M1. pose proof (I3 d2 H2 N2) as M2.
    unfold entry_matches_g in M1, M2. rewrite E1 in M1. rewrite E2 in M2. rewrite Ec in M1.
    destruct M1 as [ta [Ea Ha]], M2 as [tb [Eb Hb]]. rewrite Ea in Eb. injection Eb as <-.
    eapply tbl_equiv_trans; [exact Ha|]. now apply tbl_equiv_sym.
  - intros n d2 t2 H1 H2 Ec E2. destruct (Hdec (DModel n)) as [He|N1]; [now left|]. destruct (Hdec d2) as [He|N2]; [now right|].
    exfalso. pose proof (I3 _ H1 N1) as M1. pose proof (I3 d2 H2 N2) as M2.
    unfold entry_matches_g in M1, M2. cbn [decl_table_g] in M1. rewrite E2 in M2. rewrite Ec in M1. destruct M2 as [tb [Eb _]]. congruence.
  - exact I4.
Qed.

End DeclsGeneric.

(* EnumProperty.build (literal_enums: false): add_decl is add_decl_g values_from_list *)
Theorem enum_classes_distinct_or_shared prefix ds tab errs :
  model_decls prefix ds = Some (tab, errs) ->
  NoDup (map fst tab) /\
  (forall c t, In (c, CEnum t) tab ->
     exists p n vs, In (DEnum p n vs) ds /\ decl_class prefix (DEnum p n vs) = c /\ values_from_list vs = Some t) /\
  (forall d, In d ds -> In d errs \/ exists e, clookup (decl_class prefix d) tab = Some e) /\
  (forall d1 d2 t1 t2, In d1 ds -> In d2 ds -> decl_class prefix d1 = decl_class prefix d2 ->
     decl_table d1 = Some t1 -> decl_table d2 = Some t2 -> ~ In d1 errs -> ~ In d2 errs -> tbl_equiv t1 t2) /\
  (forall n d2 t2, In (DModel n) ds -> In d2 ds -> decl_class prefix (DModel n) = decl_class prefix d2 ->
     decl_table d2 = Some t2 -> In (DModel n) errs \/ In d2 errs) /\
  (forall d, In d errs -> In d ds).
Proof. exact (decls_distinct_or_shared_g values_from_list values_from_list_keys_nodup prefix ds tab errs). Qed.

(* the Literal style (literal_enums: true) *)
Lemma lit_go_nodup : forall vs out, NoDup (keys out) -> NoDup (keys (lit_go vs out)).
Proof. induction vs as [|v vs IH]; intros out H; cbn [lit_go]; [exact H|]. apply IH. now apply assoc_set_nodup. Qed.

Lemma lit_table_nodup vs t : lit_table vs = Some t -> NoDup (map fst t).
Proof. intros [= <-]. apply (lit_go_nodup vs []). constructor. Qed.

(* the same statement for LiteralEnumProperty.build; tables are keyed by the value itself, so tbl_equiv of two
   literal tables says that the two declared value lists are equal as sets *)
Theorem literal_classes_distinct_or_shared prefix ds tab errs :
  model_decls_lit prefix ds = Some (tab, errs) ->
  NoDup (map fst tab) /\
  (forall c t, In (c, CEnum t) tab ->
     exists p n vs, In (DEnum p n vs) ds /\ decl_class prefix (DEnum p n vs) = c /\ lit_table vs = Some t) /\
  (forall d, In d ds -> In d errs \/ exists e, clookup (decl_class prefix d) tab = Some e) /\
  (forall d1 d2 t1 t2, In d1 ds -> In d2 ds -> decl_class prefix d1 = decl_class prefix d2 ->
     decl_table_g lit_table d1 = Some t1 -> decl_table_g lit_table d2 = Some t2 -> ~ In d1 errs -> ~ In d2 errs -> tbl_equiv t1 t2) /\
  (forall n d2 t2, In (DModel n) ds -> In d2 ds -> decl_class prefix (DModel n) = decl_class prefix d2 ->
     decl_table_g lit_table d2 = Some t2 -> In (DModel n) errs \/ In d2 errs) /\
  (forall d, In d errs -> In d ds).
Proof. exact (decls_distinct_or_shared_g lit_table lit_table_nodup prefix ds tab errs). Qed.

Print Assumptions enum_classes_distinct_or_shared.
Print Assumptions literal_classes_distinct_or_shared.
