(* RegistryThm.v -- sticky registration is order independent, last-registration-wins is not (C12, order part) *)
From Coq Require Import NArith List Bool Lia Permutation.
Import ListNotations.
Require Import OPC.Uni OPC.Registry.
Open Scope N_scope.

Definition raised (uses : list body_use) (c : N) : bool := existsb (fun u => (u_cls u =? c) && u_files u) uses.

Lemma sticky_fold uses : forall r c, reg_get (fold_left sticky_step uses r) c = raised uses c || reg_get r c.
Proof.
  induction uses as [|u uses IH]; intros r c; [reflexivity|].
  cbn [fold_left raised existsb]. rewrite IH. unfold sticky_step.
  destruct (u_files u) eqn:F.
  - cbn [reg_set reg_get]. destruct (N.eqb_spec (u_cls u) c) as [E|E]; cbn [andb orb].
    + now rewrite !orb_true_r.
    + fold (raised uses c). reflexivity.
  - rewrite andb_false_r. reflexivity.
Qed.

(* the flag of a class after all paths are parsed = some multipart use exists: a property of the SET of uses *)
Theorem sticky_final_spec uses c : reg_get (sticky_final uses) c = raised uses c.
Proof. unfold sticky_final. rewrite sticky_fold. cbn [reg_get]. apply orb_false_r. Qed.

Lemma raised_perm uses uses' c : Permutation uses uses' -> raised uses c = raised uses' c.
Proof.
  unfold raised. induction 1 as [|x l l' _ IH|x y l|l l' l'' _ IH1 _ IH2]; cbn [existsb].
  - reflexivity.
  - now rewrite IH.
  - destruct ((u_cls x =? c) && u_files x), ((u_cls y =? c) && u_files y); reflexivity.
  - now rewrite IH1.
Qed.

Theorem sticky_order_independent uses uses' c : Permutation uses uses' -> reg_get (sticky_final uses) c = reg_get (sticky_final uses') c.
Proof. intro H. rewrite !sticky_final_spec. now apply raised_perm. Qed.

(* last registration wins: two orders of the same uses, different result *)
Theorem overwrite_refuted : exists uses uses' c, Permutation uses uses' /\ reg_get (overwrite_final uses) c <> reg_get (overwrite_final uses') c.
Proof.
  exists [ {| u_cls := 1; u_files := true |}; {| u_cls := 1; u_files := false |} ],
         [ {| u_cls := 1; u_files := false |}; {| u_cls := 1; u_files := true |} ], 1.
  split; [apply perm_swap|]. vm_compute. discriminate.
Qed.

Lemma find_app' {A} (f : A -> bool) l l' : find f (l ++ l') = match find f l with Some x => Some x | None => find f l' end.
Proof. induction l as [|a l IH]; cbn [app find]; [reflexivity|]. destruct (f a); [reflexivity|exact IH]. Qed.

Lemma overwrite_fold uses : forall r c,
  reg_get (fold_left overwrite_step uses r) c =
  match find (fun u => u_cls u =? c) (rev uses) with Some u => u_files u | None => reg_get r c end.
Proof.
  induction uses as [|u uses IH]; intros r c; [reflexivity|].
  cbn [fold_left rev]. rewrite IH. rewrite find_app'.
  destruct (find (fun u0 => u_cls u0 =? c) (rev uses)); [reflexivity|].
  cbn [find overwrite_step reg_set reg_get]. destruct (u_cls u =? c); reflexivity.
Qed.

Lemma find_in_consistent uses c u : uses_consistent uses = true ->
  find (fun v => u_cls v =? c) uses = Some u -> forall v, In v uses -> u_cls v = c -> u_files v = u_files u.
Proof.
  intros Hc Hf v Hv Hvc. apply find_some in Hf. destruct Hf as [Hu Huc]. apply N.eqb_eq in Huc.
  unfold uses_consistent in Hc. rewrite forallb_forall in Hc. specialize (Hc v Hv). rewrite forallb_forall in Hc.
  specialize (Hc u Hu). rewrite Hvc, Huc, N.eqb_refl in Hc. cbn in Hc. now apply eqb_prop in Hc.
Qed.

Lemma consistent_perm uses uses' : Permutation uses uses' -> uses_consistent uses = true -> uses_consistent uses' = true.
Proof.
  intros Hp Hc. unfold uses_consistent in *. rewrite forallb_forall in *. intros u Hu. rewrite forallb_forall. intros v Hv.
  assert (Hu' : In u uses) by (eapply Permutation_in; [apply Permutation_sym; exact Hp|exact Hu]).
  assert (Hv' : In v uses) by (eapply Permutation_in; [apply Permutation_sym; exact Hp|exact Hv]).
  specialize (Hc u Hu'). rewrite forallb_forall in Hc. now apply Hc.
Qed.

(* under the guard the last registration is the sticky flag *)
Lemma consistent_raised l c : uses_consistent l = true ->
  match find (fun u => u_cls u =? c) l with Some u => u_files u | None => false end = raised l c.
Proof.
  intro Hc. destruct (find (fun u => u_cls u =? c) l) as [u|] eqn:F.
  - destruct (raised l c) eqn:R.
    + apply existsb_exists in R. destruct R as [v [Hv H]]. apply andb_true_iff in H. destruct H as [H1 H2].
      apply N.eqb_eq in H1. rewrite <- H2. symmetry. exact (find_in_consistent l c u Hc F v Hv H1).
    + destruct (u_files u) eqn:Fu; [|reflexivity]. destruct (find_some _ _ F) as [Hu Huc].
      rewrite <- R. symmetry. apply existsb_exists. exists u. now rewrite Huc, Fu.
  - symmetry. apply not_true_is_false. intro R. apply existsb_exists in R. destruct R as [v [Hv H]].
    rewrite (find_none _ _ F v Hv) in H. discriminate.
Qed.

Theorem overwrite_order_independent_if_consistent uses uses' c :
  Permutation uses uses' -> uses_consistent uses = true ->
  reg_get (overwrite_final uses) c = reg_get (overwrite_final uses') c.
Proof.
  intros Hp Hc. unfold overwrite_final. rewrite !overwrite_fold. cbn [reg_get].
  assert (P : Permutation (rev uses) (rev uses')) by now rewrite <- !Permutation_rev.
  assert (Hr : uses_consistent (rev uses) = true) by (eapply consistent_perm; [apply Permutation_rev|exact Hc]).
  rewrite (consistent_raised _ c Hr), (consistent_raised _ c (consistent_perm _ _ P Hr)).
  now apply raised_perm.
Qed.
