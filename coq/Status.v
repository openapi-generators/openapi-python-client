(* Status.v — which keys of an operation's `responses` map become a documented status of the generated function
   (parser/openapi.py Endpoint._add_responses: `HTTPStatus(int(code))`, ValueError -> diagnostic, response omitted).
   Modelled: Python's int(str) for base 10 (strip of Unicode white space, optional sign, ASCII digits with single underscores
   between digits) followed by membership in the regenerated http.HTTPStatus table (gen/GenStatus.v). Keys containing a
   non-ASCII character other than white space are OUT OF THE MODEL (int() also accepts every Unicode decimal digit):
   the model answers KOutOfModel for them and no theorem speaks about them. *)
From Coq Require Import NArith ZArith List Bool.
Import ListNotations.
Require Import OPC.Uni OPC.gen.GenStatus.
Open Scope N_scope.

Inductive keyres := KStatus (n : Z) | KRejected | KOutOfModel.

Definition is_space (c : N) : bool :=
  memN c [9;10;11;12;13;28;29;30;31;32;133;160;5760;8192;8193;8194;8195;8196;8197;8198;8199;8200;8201;8202;8232;8233;8239;8287;12288].
Fixpoint lstrip (s : str) : str := match s with c :: r => if is_space c then lstrip r else s | [] => [] end.
Definition strip (s : str) : str := rev (lstrip (rev (lstrip s))).
Definition is_digit (c : N) : bool := (48 <=? c) && (c <=? 57).

(* digit (_? digit)*  - value in base 10; prev = the previous character was a digit *)
Fixpoint digits_val (acc : N) (prev : bool) (s : str) : option N :=
  match s with
  | [] => if prev then Some acc else None
  | c :: r =>
      if is_digit c then digits_val (acc * 10 + (c - 48)) true r
      else if (c =? 95) && prev then digits_val acc false r
      else None
  end.

Inductive intres := IOk (z : Z) | IErr | IOut.
Definition int_of_str (s : str) : intres :=
  let t := strip s in
  if existsb (fun c => 127 <? c) t then IOut
  else match t with
       | 43 :: r => match digits_val 0 false r with Some n => IOk (Z.of_N n) | None => IErr end
       | 45 :: r => match digits_val 0 false r with Some n => IOk (- Z.of_N n)%Z | None => IErr end
       | _ => match digits_val 0 false t with Some n => IOk (Z.of_N n) | None => IErr end
       end.

Definition memZ (z : Z) (l : list Z) : bool := existsb (Z.eqb z) l.
Definition status_of_key (s : str) : keyres :=
  match int_of_str s with
  | IOk z => if memZ z http_statuses then KStatus z else KRejected
  | IErr => KRejected
  | IOut => KOutOfModel
  end.

Definition keyres_eqb (a b : keyres) : bool :=
  match a, b with KStatus x, KStatus y => Z.eqb x y | KRejected, KRejected => true | KOutOfModel, KOutOfModel => true | _, _ => false end.

(* an accepted status is a registered one (the generated `response.status_code == n` can then be reached by HTTPStatus(n)) *)
Theorem accepted_is_registered : forall s n, status_of_key s = KStatus n -> In n http_statuses.
Proof.
  intros s n H. unfold status_of_key in H. destruct (int_of_str s) as [z| |]; try discriminate.
  destruct (memZ z http_statuses) eqn:E; [|discriminate]. injection H as <-.
  unfold memZ in E. apply existsb_exists in E. destruct E as [x [Hin Hx]]. apply Z.eqb_eq in Hx. subst x. exact Hin.
Qed.

(* KRejected: the parser's handler appends a diagnostic naming the key *)
Theorem key_accounted : forall s, (exists n, status_of_key s = KStatus n) \/ status_of_key s = KRejected \/ status_of_key s = KOutOfModel.
Proof. intro s. destruct (status_of_key s) as [n| |]; [left; exists n; reflexivity | right; left; reflexivity | right; right; reflexivity]. Qed.

(* the plain three-digit spelling of every registered code is accepted as that code: finite, by computation over the table *)
Definition dec3 (z : Z) : str := let n := Z.to_N z in [48 + n / 100; 48 + (n / 10) mod 10; 48 + n mod 10].
Theorem registered_three_digits : forall z, In z http_statuses -> status_of_key (dec3 z) = KStatus z.
Proof.
  assert (H : forallb (fun z => keyres_eqb (status_of_key (dec3 z)) (KStatus z)) http_statuses = true) by (vm_compute; reflexivity).
  intros z Hin. rewrite forallb_forall in H. specialize (H z Hin).
  destruct (status_of_key (dec3 z)) as [n| |]; cbn in H; try discriminate. apply Z.eqb_eq in H. subst n. reflexivity.
Qed.

(* a key with a letter (default, 2XX, 4xx, ...) is never a status: digits_val fails on any character that is neither digit nor underscore *)
Definition plain_bad (c : N) : bool := negb (is_digit c) && negb (c =? 95).
Lemma digits_val_bad : forall s acc prev, existsb plain_bad s = true -> digits_val acc prev s = None.
Proof.
  induction s as [|c r IH]; intros acc prev H; [discriminate|].
  cbn [existsb] in H. cbn [digits_val]. unfold plain_bad in H.
  destruct (is_digit c); [now apply IH|]. destruct (c =? 95); [|reflexivity].
  destruct prev; [now apply IH|reflexivity].
Qed.

Lemma int_of_str_ascii s c r : strip s = c :: r -> existsb (fun c => 127 <? c) (c :: r) = false ->
  int_of_str s = match digits_val 0 false (if (c =? 43) || (c =? 45) then r else c :: r) with
                 | Some n => IOk (if c =? 45 then (- Z.of_N n)%Z else Z.of_N n)
                 | None => IErr
                 end.
Proof.
  intros Et Hasc. unfold int_of_str. rewrite Et, Hasc.
  (* the match of int_of_str tests the bits of c *)
  destruct c as [|p]; [reflexivity|]. do 6 (destruct p as [p|p|]; try reflexivity).
Qed.

Theorem lettered_key_rejected : forall s,
  existsb (fun c => 127 <? c) (strip s) = false ->
  existsb (fun c => plain_bad c && negb (c =? 43) && negb (c =? 45)) (strip s) = true ->
  status_of_key s = KRejected.
Proof.
  intros s Hasc Hbad. unfold status_of_key.
  destruct (strip s) as [|c r] eqn:Et; [discriminate|]. rewrite (int_of_str_ascii s c r Et Hasc).
  (* the offending character is not a sign, so it is still there after a leading sign is taken off *)
  rewrite digits_val_bad; [reflexivity|].
  apply existsb_exists in Hbad as (x & Hin & Hx). apply andb_true_iff in Hx as [Hx H45]. apply andb_true_iff in Hx as [Hx H43].
  apply existsb_exists. exists x. split; [|exact Hx].
  destruct ((c =? 43) || (c =? 45)) eqn:Ec; [|exact Hin].
  destruct Hin as [<-|Hin]; [|exact Hin].
  apply negb_true_iff in H43, H45. now rewrite H43, H45 in Ec.
Qed.

(* the usual wildcard spellings *)
Example wildcard_keys : status_of_key [100;101;102;97;117;108;116] = KRejected /\ status_of_key [50;88;88] = KRejected /\ status_of_key [52;120;120] = KRejected.
Proof. vm_compute. repeat split; reflexivity. Qed.

(* int() is more liberal than the OpenAPI key grammar: distinct keys can denote one status; both are then generated as
   `if response.status_code == 200` blocks and the second can never be reached (cf. EndpointThm.status_alias_refuted) *)
Theorem status_key_alias_refuted : exists a b, a <> b /\ status_of_key a = KStatus 200%Z /\ status_of_key b = KStatus 200%Z.
Proof. exists [50;48;48], [32;43;48;50;95;48;48;10]. split; [discriminate|]. vm_compute. split; reflexivity. Qed.
(* a registered code is needed: 299 / 600 / 99 are rejected although they are integers *)
Example unregistered_rejected : status_of_key [50;57;57] = KRejected /\ status_of_key [54;48;48] = KRejected /\ status_of_key [57;57] = KRejected /\ status_of_key [45;50;48;48] = KRejected.
Proof. vm_compute. repeat split; reflexivity. Qed.
(* gen_status.py found `HTTPStatus(int(code))` under `except ValueError` in Endpoint._add_responses: the shape modelled here *)
Example conv_shape_known : status_conv_known = true.
Proof. reflexivity. Qed.
