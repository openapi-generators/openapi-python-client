(* RenameThm.v — C18, document names cannot capture the generated code's own names: renaming invariance of the statement IR of
   Rename.v (capture_free, capture_refuted) and of the endpoint model in its python names (kwargs_rename_invariant); two facts on the
   regenerated name tables (python_identifier_avoids, spelling_avoids). *)
From Coq Require Import NArith ZArith List Bool Lia.
Import ListNotations.
Require Import OPC.gen.GenTables OPC.gen.GenKinds OPC.gen.GenNames OPC.Uni OPC.UniFast OPC.Names OPC.NamesThm OPC.NamesFast OPC.MapsThm OPC.Codec OPC.Types OPC.Endpoint OPC.EndpointThm OPC.Rename.
Open Scope N_scope.

Definition inj_on (rho : var -> var) (U : list var) : Prop :=
  forall x y, In x U -> In y U -> rho x = rho y -> x = y.

(* ECall nests lists *)
Section ExprInd.
  Variable P : expr -> Prop.
  Hypothesis HVar : forall x, P (EVar x).
  Hypothesis HConst : forall c, P (EConst c).
  Hypothesis HAttr : forall e a, P e -> P (EAttr e a).
  Hypothesis HGet : forall e k, P e -> P (EGet e k).
  Hypothesis HPop : forall d k dflt, P (EPop d k dflt).
  Hypothesis HCall : forall f args, Forall P args -> P (ECall f args).
  Hypothesis HIs : forall e t, P e -> P (EIsInst e t).
  Fixpoint expr_ind' (e : expr) : P e :=
    match e with
    | EVar x => HVar x
    | EConst c => HConst c
    | EAttr e1 a => HAttr e1 a (expr_ind' e1)
    | EGet e1 k => HGet e1 k (expr_ind' e1)
    | EPop d k dflt => HPop d k dflt
    | ECall f args => HCall f args ((fix go (l : list expr) : Forall P l :=
                                       match l with [] => Forall_nil P | a :: r => Forall_cons a (expr_ind' a) (go r) end) args)
    | EIsInst e1 t => HIs e1 t (expr_ind' e1)
    end.
End ExprInd.

Section Alpha.
  Variable V : Type.
  Variable O : ops V.
  Variable rho : var -> var.

  Lemma lookup_ren (en : env V) U x : inj_on rho U -> incl (keys en) U -> In x U ->
    lookup (ren_env rho en) (rho x) = lookup en x.
  Proof.
    intros Hinj. induction en as [|[k v] en IH]; intros Hk Hx; [reflexivity|].
    cbn [ren_env map lookup fst snd]. cbn [keys map fst] in Hk. apply incl_cons_inv in Hk as [Hku Hr].
    destruct (str_eqb_spec k x) as [->|Hne].
    - now rewrite str_eqb_refl.
    - rewrite str_eqb_neq by (intro E; now apply Hinj in E). now apply IH.
  Qed.

  Lemma keys_upd x (v : V) en : keys (upd x v en) = x :: keys en.
  Proof. reflexivity. Qed.

  Lemma incl_upd U x (v : V) en : In x U -> incl (keys en) U -> incl (keys (upd x v en)) U.
  Proof. intros Hx Hk z [<-|Hz]; auto. Qed.

  Definition res_keys (r : res V) (U : list var) : Prop :=
    match r with RNorm en | RExc en => incl (keys en) U | RRet _ => True end.

  (* The simulation, for U on which rho is injective: the renamed run (primed) ends in the renamed environment with the same value,
     and the environment of the original run stays inside U, which the next step needs. *)
  Definition esim {A} U (p' p : env V * A) : Prop := p' = (ren_env rho (fst p), snd p) /\ incl (keys (fst p)) U.
  Definition rsim U (r' r : res V) : Prop := r' = map_res (ren_env rho) r /\ res_keys r U.

  Lemma esim_map {A B} (g : A -> B) U p' p : esim U p' p ->
    esim U (let (en1, r) := p' in (en1, g r)) (let (en1, r) := p in (en1, g r)).
  Proof. intros [-> K]. destruct p as [en1 r]. now split. Qed.

  Lemma esim_then U p' p (k' k : env V -> V -> res V) : esim U p' p ->
    (forall en1 v, incl (keys en1) U -> rsim U (k' (ren_env rho en1) v) (k en1 v)) ->
    rsim U (match p' with (en1, Some v) => k' en1 v | (en1, None) => RExc en1 end)
           (match p with (en1, Some v) => k en1 v | (en1, None) => RExc en1 end).
  Proof. intros [-> K] Hk. destruct p as [en1 [v|]]; [now apply Hk | now split]. Qed.

  (* l.append(v), d["k"] = v, d[k] = v *)
  Definition modify (x : var) (f : V -> option V) (en : env V) : res V :=
    match lookup en x with
    | Some xv => match f xv with Some xv' => RNorm (upd x xv' en) | None => RExc en end
    | None => RExc en
    end.

  Lemma modify_ren x f en U : inj_on rho U -> incl (keys en) U -> In x U ->
    rsim U (modify (rho x) f (ren_env rho en)) (modify x f en).
  Proof.
    intros Hinj K Hx. unfold modify. rewrite (lookup_ren en U) by assumption.
    destruct (lookup en x) as [xv|]; [|now split]. destruct (f xv); [|now split].
    split; [reflexivity | now apply incl_upd].
  Qed.

  Definition eval_ok (e : expr) : Prop :=
    forall (en : env V) U, incl (evars e) U -> incl (keys en) U -> inj_on rho U ->
      esim U (eval O (ren_expr rho e) (ren_env rho en)) (eval O e en).

  Lemma eval_list_ok args : Forall eval_ok args ->
    forall (en : env V) U, incl (flat_map evars args) U -> incl (keys en) U -> inj_on rho U ->
      esim U (eval_list (eval O) (map (ren_expr rho) args) (ren_env rho en)) (eval_list (eval O) args en).
  Proof.
    induction 1 as [|a r Ha _ IH]; intros en U Hv Hk Hinj; [now split|].
    cbn [flat_map] in Hv. apply incl_app_inv in Hv as [Hva Hvr].
    cbn [map eval_list]. destruct (Ha en U Hva Hk Hinj) as [-> Ka].
    destruct (eval O a en) as [en1 [va|]]; [|now split].
    exact (esim_map (option_map (cons va)) U _ _ (IH en1 U Hvr Ka Hinj)).
  Qed.

  Lemma eval_ren : forall e, eval_ok e.
  Proof.
    induction e using expr_ind'; intros en U Hv Hk Hinj; cbn [ren_expr eval evars] in *.
    - (* EVar *) rewrite (lookup_ren en U) by (auto; apply Hv; now left). now split.
    - now split.
    - now apply esim_map, IHe.
    - now apply esim_map, IHe.
    - (* EPop *) assert (Hd : In d U) by (apply Hv; now left).
      rewrite (lookup_ren en U) by assumption.
      destruct (lookup en d) as [dv|]; [|now split].
      destruct (o_pop O dv k) as [[v dv']|]; [|now split].
      split; [reflexivity | now apply incl_upd].
    - (* ECall *) now apply esim_map, eval_list_ok.
    - now apply esim_map, IHe.
  Qed.

  Lemma loop_ren (body : stmt) x U :
    (forall en, incl (keys en) U -> rsim U (exec O (ren_stmt rho body) (ren_env rho en)) (exec O body en)) -> In x U ->
    forall items en, incl (keys en) U ->
      rsim U (loop (exec O (ren_stmt rho body)) (rho x) items (ren_env rho en)) (loop (exec O body) x items en).
  Proof.
    intros Hb Hx. induction items as [|it r IH]; intros en Hk; [now split|].
    cbn [loop]. change (upd (rho x) it (ren_env rho en)) with (ren_env rho (upd x it en)).
    destruct (Hb (upd x it en)) as [-> K]; [now apply incl_upd|].
    destruct (exec O body (upd x it en)) as [en'|v|en']; [now apply IH | now split | now split].
  Qed.

  Lemma exec_ren : forall s (en : env V) U, incl (svars s) U -> incl (keys en) U -> inj_on rho U ->
    rsim U (exec O (ren_stmt rho s) (ren_env rho en)) (exec O s en).
  Proof.
    induction s; intros en U Hv Hk Hinj; cbn [ren_stmt exec svars] in *.
    - (* SSkip *) now split.
    - (* SSeq *) apply incl_app_inv in Hv as [Hva Hvb].
      destruct (IHs1 en U Hva Hk Hinj) as [-> K].
      destruct (exec O s1 en) as [en1|v|en1]; [now apply IHs2 | now split | now split].
    - (* SAssign *) apply incl_cons_inv in Hv as [Hx Hve].
      apply esim_then; [now apply eval_ren|]. intros en1 v K.
      split; [reflexivity | now apply incl_upd].
    - (* SAppend *) apply incl_cons_inv in Hv as [Hx Hve].
      apply esim_then; [now apply eval_ren|]. intros en1 v K.
      exact (modify_ren l (fun lv => o_append O lv v) en1 U Hinj K Hx).
    - (* SSetKey *) apply incl_cons_inv in Hv as [Hx Hve].
      apply esim_then; [now apply eval_ren|]. intros en1 v K.
      exact (modify_ren d (fun dv => o_setkey O dv k v) en1 U Hinj K Hx).
    - (* SSetItem *) apply incl_cons_inv in Hv as [Hx Hv]. apply incl_app_inv in Hv as [Hvk Hve].
      apply esim_then; [now apply eval_ren|]. intros en1 v K.
      apply esim_then; [now apply eval_ren|]. intros en2 kv K2.
      exact (modify_ren d (fun dv => o_setitem O dv kv v) en2 U Hinj K2 Hx).
    - (* SExpr *) apply esim_then; [now apply eval_ren|]. now split.
    - (* SIf *) apply incl_app_inv in Hv as [Hvc Hv]. apply incl_app_inv in Hv as [Hva Hvb].
      apply esim_then; [now apply eval_ren|]. intros en1 v K.
      destruct (o_truthy O v); [now apply IHs1 | now apply IHs2].
    - (* SFor *) apply incl_cons_inv in Hv as [Hx Hv]. apply incl_app_inv in Hv as [Hve Hvs].
      apply esim_then; [now apply eval_ren|]. intros en1 v K.
      destruct (o_iter O v) as [items|]; [|now split].
      apply loop_ren; auto.
    - (* STry *) apply incl_app_inv in Hv as [Hva Hvb].
      destruct (IHs1 en U Hva Hk Hinj) as [-> K].
      destruct (exec O s1 en) as [en1|v|en1]; [now split | now split | now apply IHs2].
    - (* SRaise *) now split.
    - (* SReturn *) apply esim_then; [now apply eval_ren|]. now split.
  Qed.

  Theorem rename_invariant_inj : forall p (en : env V),
    inj_on rho (svars p ++ keys en) ->
    run O (ren_stmt rho p) (ren_env rho en) = run O p en.
  Proof.
    intros p en Hinj. unfold run.
    destruct (exec_ren p en (svars p ++ keys en)) as [E _]; [apply incl_appl, incl_refl|apply incl_appr, incl_refl|exact Hinj|].
    rewrite E. now destruct (exec O p en).
  Qed.

  (* rho renames the document-derived variables D injectively, leaves the template variables T alone, and no renamed variable
     lands in T *)
  Theorem rename_invariant : forall (D T : list var) p (en : env V),
    incl (svars p) (D ++ T) -> incl (keys en) (D ++ T) ->
    (forall x, In x D -> ~ In x T) ->
    inj_on rho D ->
    (forall x, In x T -> rho x = x) ->
    (forall x, In x D -> ~ In (rho x) T) ->
    run O (ren_stmt rho p) (ren_env rho en) = run O p en.
  Proof.
    intros D T p en Hp He Hdt HinjD Hid Hdisj. apply rename_invariant_inj.
    intros x y Hx Hy Hxy. apply (incl_app Hp He) in Hx, Hy.
    apply in_app_or in Hx as [Hx|Hx]; apply in_app_or in Hy as [Hy|Hy].
    - now apply HinjD.
    - exfalso. apply (Hdisj x Hx). rewrite Hxy, (Hid y Hy). exact Hy.
    - exfalso. apply (Hdisj y Hy). rewrite <- Hxy, (Hid x Hx). exact Hx.
    - rewrite (Hid x Hx), (Hid y Hy) in Hxy. exact Hxy.
  Qed.
End Alpha.

Lemma ren1_same x n : ren1 x n x = n.
Proof. unfold ren1. now rewrite str_eqb_refl. Qed.
Lemma ren1_other x n y : y <> x -> ren1 x n y = y.
Proof. intro H. unfold ren1. now rewrite str_eqb_neq. Qed.

(* a document-derived variable x renamed to ANY name outside the function's template variables T does not change the result *)
Theorem capture_free : forall V (O : ops V) (T : list var) p (en : env V) x n,
  ~ In x T -> ~ In n T ->
  incl (svars p) (x :: T) -> incl (keys en) (x :: T) ->
  run O (ren_stmt (ren1 x n) p) (ren_env (ren1 x n) en) = run O p en.
Proof.
  intros V O T p en x n Hx Hn Hp He.
  apply rename_invariant with (D := [x]) (T := T); auto.
  - intros y [<-|[]]. exact Hx.
  - intros a b [<-|[]] [<-|[]] _. reflexivity.
  - intros y Hy. apply ren1_other. intros ->. contradiction.
  - intros y [<-|[]]. now rewrite ren1_same.
Qed.

(* capture_free at T := scope_names template_names scope *)
Theorem capture_free_names : forall V (O : ops V) (scope : str) p (en : env V) x n,
  ~ In x (scope_names template_names scope) -> ~ In n (scope_names template_names scope) ->
  incl (svars p) (x :: scope_names template_names scope) -> incl (keys en) (x :: scope_names template_names scope) ->
  run O (ren_stmt (ren1 x n) p) (ren_env (ren1 x n) en) = run O p en.
Proof. intros V O scope. apply capture_free. Qed.

(* the full statement (any new name) is false: renaming x to the template's own local d changes what from_dict returns *)
Theorem capture_refuted : exists (p : stmt) (en : env cval) (x n : var),
  ~ In x from_dict_template_vars /\ In n from_dict_template_vars /\
  incl (svars p) (x :: from_dict_template_vars) /\ incl (keys en) (x :: from_dict_template_vars) /\
  run cops (ren_stmt (ren1 x n) p) (ren_env (ren1 x n) en) <> run cops p en.
Proof.
  exists (from_dict_shape v_x), from_dict_env, v_x, v_d. repeat split.
  - intros [H|[H|[H|[]]]]; discriminate H.
  - now left.
  - intros z Hz. cbn in Hz. cbn. intuition.
  - intros z Hz. cbn in Hz. cbn. intuition.
  - vm_compute. discriminate.
Qed.

(* what the two runs return: (popped value, remaining keys) vs (popped value, popped value) *)
Example capture_refuted_values :
  run cops (from_dict_shape v_x) from_dict_env = ORet (CTup [CStr [118]; CDict [([101], CStr [119])]]) /\
  run cops (ren_stmt (ren1 v_x v_d) (from_dict_shape v_x)) (ren_env (ren1 v_x v_d) from_dict_env) = ORet (CTup [CStr [118]; CStr [118]]).
Proof. split; vm_compute; reflexivity. Qed.

(* non-vacuity of capture_free *)
Example capture_free_nonvacuous :
  run cops (ren_stmt (ren1 v_x [113]) (from_dict_shape v_x)) (ren_env (ren1 v_x [113]) from_dict_env)
  = ORet (CTup [CStr [118]; CDict [([101], CStr [119])]]).
Proof. vm_compute. reflexivity. Qed.

(* Endpoint.arg / ren_args and Rename.lookup / ren_env at pv are the same fixpoints: by conversion *)
Lemma arg_ren rho (a : args) U n : inj_on rho U -> incl (map fst a) U -> In n U ->
  arg (ren_args rho a) (rho n) = arg a n.
Proof. exact (lookup_ren pv rho a U n). Qed.

Section KwRen.
  Variable T : ctable.
  Variable fuel : nat.
  Variable rho : str -> str.
  Variable a : args.
  Variable U : list str.
  Hypothesis Hinj : inj_on rho U.
  Hypothesis Ha : incl (map fst a) U.

  Lemma collect_ren step' step ps : (forall p, In p ps -> step' (ren_param rho p) = step p) ->
    forall d, collect step' (map (ren_param rho) ps) d = collect step ps d.
  Proof.
    induction ps as [|p ps IH]; intros H d; [reflexivity|]. cbn [map collect]. rewrite (H p) by now left.
    change (pa_name (ren_param rho p)) with (pa_name p).
    destruct (step p) as [[v|]|]; [apply IH | apply IH | reflexivity]; intros q Hq; apply H; now right.
  Qed.

  Lemma guarded_collect_ren (g : pk -> pv -> option pv) ps : incl (map pa_py ps) U -> forall d,
    collect (guarded (fun p => g (pa_kind p)) (ren_args rho a)) (map (ren_param rho) ps) d =
    collect (guarded (fun p => g (pa_kind p)) a) ps d.
  Proof.
    intros Hp d. apply collect_ren. intros p Hin. assert (Hpy : In (pa_py p) U) by apply Hp, in_map, Hin.
    unfold guarded. cbn [ren_param pa_py pa_req pa_kind]. now rewrite (arg_ren rho a U).
  Qed.

  (* dict-valued query parameters are merged key by key: not a collect *)
  Lemma query_ren ps : incl (map pa_py ps) U -> forall d,
    query_of T fuel (map (ren_param rho) ps) (ren_args rho a) d = query_of T fuel ps a d.
  Proof.
    induction ps as [|p ps IH]; intros Hp d; [reflexivity|].
    cbn [map query_of ren_param pa_py pa_name pa_req pa_kind]. cbn [map] in Hp. apply incl_cons_inv in Hp as [Hp Hr].
    rewrite (arg_ren rho a U) by assumption.
    destruct (arg a (pa_py p)) as [v|]; [|reflexivity].
    fold (qdest T fuel p v). destruct (qdest T fuel p v) as [dv|]; [|reflexivity].
    destruct (kf_json_is_dict (kfacts_of (pa_kind p))).
    - destruct (negb (pa_req p) && is_unset dv); [now apply IH|].
      destruct dv as [|j| | | | | |]; try reflexivity. destruct j; try reflexivity. now apply IH.
    - now apply IH.
  Qed.
End KwRen.

Lemma subst_py_ren rho a U : inj_on rho U -> incl (map fst a) U ->
  forall segs, incl (slots segs) U -> subst_py (map_seg rho segs) (ren_args rho a) = subst_py segs a.
Proof.
  intros Hinj Ha. induction segs as [|x segs IH]; intros Hs; [reflexivity|].
  rewrite map_seg_cons. rewrite slots_cons in Hs. apply incl_app_inv in Hs as [Hx Hs].
  destruct x as [s|n]; cbn [subst_py].
  - now rewrite IH.
  - rewrite (arg_ren rho a U) by (auto; apply Hx; now left). now rewrite IH.
Qed.

Lemma format_path_ren rho a U segs : inj_on rho U -> incl (map fst a) U -> incl (slots segs) U ->
  lits_ok segs = true -> forallb plain_name (slots segs) = true -> forallb (fun n => plain_name (rho n)) (slots segs) = true ->
  format_path (render_tpl (map_seg rho segs)) (ren_args rho a) = format_path (render_tpl segs) a.
Proof.
  intros Hinj Ha Hs Hok Hpl Hpl'. unfold format_path. rewrite forallb_forall in Hpl'.
  rewrite !format_slots; auto.
  - now apply (subst_py_ren rho a U).
  - now apply lits_ok_map.
  - rewrite slots_map, forallb_forall. intros z Hz. apply in_map_iff in Hz as [n [<- Hn]]. now apply Hpl'.
Qed.

Lemma map_seg_no_slots g segs : slots segs = [] -> map_seg g segs = segs.
Proof.
  induction segs as [|[s|n] segs IH]; rewrite ?slots_cons, ?map_seg_cons; [reflexivity | | discriminate].
  intro H. now rewrite (IH H).
Qed.

(* renaming the python names of all parameters, with the argument list and the {py} placeholders of the path: the model's request
   depends on wire names only *)
Theorem kwargs_rename_invariant : forall T fuel (rho : str -> str) segs ep a,
  ep_path ep = render_tpl segs -> lits_ok segs = true -> slots segs = map pa_py (ep_pathp ep) ->
  forallb plain_name (slots segs) = true ->                          (* old placeholders are plain identifiers *)
  forallb (fun n => plain_name (rho n)) (slots segs) = true ->       (* and so are the new ones *)
  inj_on rho (s_body :: map fst a ++ py_names ep) -> rho s_body = s_body ->
  get_kwargs T fuel (ren_endpoint rho (render_tpl (map_seg rho segs)) ep) (ren_args rho a) = get_kwargs T fuel ep a.
Proof.
  intros T fuel rho segs ep a Hpath Hok Hsl Hpl Hpl' Hinj Hbody.
  set (U := s_body :: map fst a ++ py_names ep) in *.
  assert (Ha : incl (map fst a) U) by (intros z Hz; right; apply in_or_app; now left).
  assert (Hpy : forall ps, incl ps (ep_pathp ep ++ ep_query ep ++ ep_header ep ++ ep_cookie ep) -> incl (map pa_py ps) U).
  { intros ps Hps z Hz. right. apply in_or_app. right. apply in_map_iff in Hz as [p [<- Hp]]. apply in_map. now apply Hps. }
  rewrite !get_kwargs_eq. cbn [ren_endpoint ep_path ep_query ep_header ep_cookie ep_bodies].
  rewrite !headers_collect, !cookies_collect.
  rewrite (guarded_collect_ren rho a U Hinj Ha header_value), (guarded_collect_ren rho a U Hinj Ha (fun _ v => Some v))
    by auto using incl_appl, incl_appr, incl_refl.
  rewrite <- headers_collect, <- cookies_collect.
  rewrite (query_ren T fuel rho a U Hinj Ha) by auto using incl_appl, incl_appr, incl_refl.
  rewrite (format_path_ren rho a U), <- Hpath; auto; [|rewrite Hsl; auto using incl_appl, incl_refl].
  (* get_kwargs_eq spells s_body out *)
  replace (arg (ren_args rho a) [98;111;100;121]) with (arg a [98;111;100;121])
    by (symmetry; rewrite <- Hbody at 1; apply (arg_ren rho a U); auto; now left).
  destruct (headers_of (ep_header ep) a []) as [hs|], (cookies_of (ep_cookie ep) a []) as [cs|],
           (query_of T fuel (ep_query ep) a []) as [qs|], (format_path (ep_path ep) a) as [url|]; try reflexivity.
  f_equal. apply kw_base_ext; cbn [ren_endpoint ep_method ep_path ep_pathp ep_query ep_header ep_cookie ep_bodies];
    rewrite ?map_length; try reflexivity.
  (* no path parameter: no placeholder, the path is not renamed at all *)
  destruct (ep_pathp ep); [|reflexivity]. cbn [map]. now rewrite Hpath, map_seg_no_slots.
Qed.

Definition is_reserved (c : str) : bool := mem_str c reserved_words || mem_str c keywords.
Definition avoids (c : str) : bool := if is_reserved c then negb (str_eqb (python_identifier c [] false) c) else true.

(* the trailing underscore of fix_reserved_words takes a name out of the reserved ones *)
Lemma fact_reserved_suffix : forallb (fun k => negb (is_reserved (k ++ [95]))) (reserved_words ++ keywords) = true.
Proof. vm_compute. reflexivity. Qed.

Lemma fix_reserved_not_reserved v : is_reserved (fix_reserved v) = false.
Proof.
  unfold fix_reserved. fold (is_reserved v). destruct (is_reserved v) eqn:E; [|exact E].
  pose proof fact_reserved_suffix as F. rewrite forallb_forall in F. apply negb_true_iff, F.
  apply orb_true_iff in E as [E|E]; apply mem_str_In in E; apply in_or_app; auto.
Qed.

(* a keyword or a word of utils.RESERVED_WORDS is never used verbatim as a python name *)
Lemma reserved_not_verbatim c : is_reserved c = true -> python_identifier c [] false <> c.
Proof.
  intros Hres Heq. unfold python_identifier in Heq.
  assert (H : fix_reserved (snake_case (sanitize c)) = c) by (destruct (_ || _); exact Heq).
  pose proof (fix_reserved_not_reserved (snake_case (sanitize c))) as Hn. rewrite H in Hn. congruence.
Qed.

(* the second conjunct holds of any list; the check reads gen_names_known = true off this lemma *)
Lemma gen_names_facts :
  gen_names_known = true /\ forallb (fun sn => avoids (snd sn)) template_names = true.
Proof.
  split; [vm_compute; reflexivity|]. apply forallb_forall. intros [scope c] _. unfold avoids. cbn [snd].
  destruct (is_reserved c) eqn:E; [|reflexivity]. apply negb_true_iff, str_eqb_neq, reserved_not_verbatim, E.
Qed.

(* the hypothesis on the name table is not needed: reserved_not_verbatim *)
Theorem python_identifier_avoids : forall scope c,
  In (scope, c) template_names -> is_reserved c = true -> python_identifier c [] false <> c.
Proof. intros scope c _. apply reserved_not_verbatim. Qed.

Example template_names_nontrivial :
  (100 <=? N.of_nat (length template_names)) = true /\ existsb (fun sn => is_reserved (snd sn)) template_names = true.
Proof. split; vm_compute; reflexivity. Qed.

(* non-vacuity of kwargs_rename_invariant: /a/{x}?q=<y>, x and y renamed to the template's own locals `params` and `headers`: the
   model sends the same request (the generated code does not: known findings capture_...) *)
Definition ex_ep : endpoint :=
  {| ep_method := [103;101;116]; ep_path := render_tpl [Lit [47;97;47]; Slot [120]];
     ep_pathp := [{| pa_name := [120]; pa_py := [120]; pa_req := true; pa_kind := KStr |}];
     ep_query := [{| pa_name := [113]; pa_py := [121]; pa_req := true; pa_kind := KStr |}];
     ep_header := []; ep_cookie := []; ep_bodies := []; ep_security := false; ep_responses := [] |}.
Definition ex_rho (n : str) : str :=
  if str_eqb n [120] then [112;97;114;97;109;115] else if str_eqb n [121] then [104;101;97;100;101;114;115] else n.
Definition ex_args : args := [([120], PJ (JStr [55])); ([121], PJ (JStr [56]))].
Example kwargs_rename_nonvacuous :
  get_kwargs [] 5 (ren_endpoint ex_rho (render_tpl (map_seg ex_rho [Lit [47;97;47]; Slot [120]])) ex_ep) (ren_args ex_rho ex_args)
    = get_kwargs [] 5 ex_ep ex_args
  /\ option_map kw_url (get_kwargs [] 5 ex_ep ex_args) = Some [47;97;47;55]
  /\ pa_py (hd {| pa_name := []; pa_py := []; pa_req := true; pa_kind := KStr |} (ep_query (ren_endpoint ex_rho [] ex_ep))) = [104;101;97;100;101;114;115].
Proof. repeat split; vm_compute; reflexivity. Qed.

(* spelling_names: spellings that differ from a template identifier only by what python_identifier strips or folds: leading /
   trailing underscores, a leading space or dash, a trailing dash, letter case.  s_field is the default field_prefix. *)
Definition s_field : str := [102;105;101;108;100;95].
Lemma fact_field_not_reserved : existsb (is_prefix s_field) (reserved_words ++ keywords) = false.
Proof. vm_compute. reflexivity. Qed.

(* either the trailing underscore or the field_ prefix applies *)
Theorem python_identifier_not_reserved s : is_reserved (python_identifier s s_field false) = false.
Proof.
  unfold python_identifier. destruct (_ || _); [|apply fix_reserved_not_reserved].
  destruct (is_reserved (s_field ++ _)) eqn:E; [|reflexivity].
  assert (Hin : In (s_field ++ fix_reserved (snake_case (sanitize s))) (reserved_words ++ keywords))
    by (apply orb_true_iff in E as [E|E]; apply mem_str_In in E; apply in_or_app; auto).
  pose proof fact_field_not_reserved as F. rewrite <- not_true_iff_false in F. destruct F.
  apply existsb_exists. eexists. split; [exact Hin | apply is_prefix_app].
Qed.

(* for a regenerated (spelling s, template identifier N) with python names r of s and rN of N: a spelling that starts with an
   underscore never becomes N (the field_ prefix applies: the test looks at the raw value), and r is a template identifier only as one
   more spelling of N (r = rN) *)
Definition spelling_ok (s N r rN : str) (known : bool) : bool :=
  negb (starts_us s && str_eqb r N) && (negb known || starts_us N || str_eqb r rN).

Lemma spelling_ok_sound s N r rN : spelling_ok s N r rN (mem_str r template_idents) = true ->
  (starts_us s = true -> r <> N) /\
  (starts_us N = false -> In r template_idents -> r = rN).
Proof.
  unfold spelling_ok. intro H. apply andb_true_iff in H as [H2 H3]. apply negb_true_iff in H2. split.
  - intros Hs ->. now rewrite Hs, str_eqb_refl in H2.
  - intros HN Hin. apply mem_str_In in Hin. rewrite Hin, HN in H3. now apply str_eqb_eq.
Qed.

Definition idents_idx := word_index template_idents.

(* each computed once for the whole sweep: many spellings share their N *)
Fixpoint name_of (known : list (str * str)) (N : str) : str :=
  match known with
  | [] => python_identifier_f N s_field
  | (k, v) :: r => if str_eqb k N then v else name_of r N
  end.
Definition ident_names : list (str * str) := map (fun N => (N, python_identifier_f N s_field)) template_idents.

Lemma name_of_eq N : name_of ident_names N = python_identifier_f N s_field.
Proof.
  unfold ident_names. induction template_idents as [|M l IH]; cbn [map name_of]; [reflexivity|].
  now destruct (str_eqb_spec M N) as [->|_].
Qed.

Lemma spelling_facts :
  forallb (fun sn => let r := python_identifier_f (fst sn) s_field in
                     spelling_ok (fst sn) (snd sn) r (name_of ident_names (snd sn)) (mem_str_f template_idents idents_idx r))
          spelling_names = true.
Proof. vm_compute. reflexivity. Qed.

Theorem spelling_avoids : forall s N, In (s, N) spelling_names ->
  let r := python_identifier s s_field false in
  is_reserved r = false /\
  (starts_us s = true -> r <> N) /\
  (starts_us N = false -> In r template_idents -> r = python_identifier N s_field false).
Proof.
  intros s N Hin. split; [apply python_identifier_not_reserved|].
  pose proof spelling_facts as H. rewrite forallb_forall in H. specialize (H _ Hin). cbn [fst snd] in H.
  unfold idents_idx in H. rewrite mem_str_f_eq, name_of_eq, !python_identifier_f_eq in H. exact (spelling_ok_sound _ _ _ _ H).
Qed.

Example spelling_names_nontrivial :
  (500 <=? N.of_nat (length spelling_names)) = true /\ existsb (fun sn => starts_us (fst sn)) spelling_names = true
  /\ python_identifier [95;98;111;100;121] s_field false = [102;105;101;108;100;95;98;111;100;121].    (* _body -> field_body *)
Proof. repeat split; vm_compute; reflexivity. Qed.
