(* CodecThm.v — proofs about Codec.v. C02: one induction on the fuel (rt_strong) shows that a schema-valid instance decodes to a
   well-typed value (Typed.v) that the encoder takes back to the instance; refutations outside the guard k_ok. C10 at the end. *)
From Coq Require Import NArith ZArith List Bool Lia.
Import ListNotations.
Require Import OPC.gen.GenKinds OPC.Uni OPC.Names OPC.NamesThm OPC.Codec OPC.MapsThm OPC.Typed.
Open Scope N_scope.

(* facts read off the regenerated kind table (gen/GenKinds.v) *)
Lemma no_construct_no_transform k : has_construct k = false -> has_transform k = false.
Proof. destruct k; cbv; congruence. Qed.

Lemma transform_has_check k : has_transform k = true -> (forall ms, k <> KUnion ms) -> has_check k = true /\ has_construct k = true.
Proof. destruct k; cbv; intros H Hn; try congruence; try (split; reflexivity). exfalso. eapply Hn. reflexivity. Qed.

Lemma construct_no_transform_const k : has_construct k = true -> has_transform k = false -> exists c, k = KConst c.
Proof. destruct k; cbv; intros H1 H2; try congruence. eauto. Qed.

Definition is_union (k : pk) : bool := match k with KUnion _ => true | _ => false end.
Lemma not_union k : is_union k = false -> forall ms, k <> KUnion ms.
Proof. intros H ms ->. discriminate H. Qed.

Definition tagin (t : jtag) (l : list jtag) : bool := existsb (jtag_eqb t) l.

Lemma jtag_eqb_eq a b : jtag_eqb a b = true -> a = b.
Proof. destruct a, b; intro H; (reflexivity || discriminate H). Qed.

Lemma tags_disjoint_l a b t : tags_disjoint a b = true -> tagin t a = true -> tagin t b = false.
Proof.
  unfold tags_disjoint, tagin. intros H1 H2. rewrite forallb_forall in H1. apply existsb_exists in H2 as (x & Hx & He).
  apply jtag_eqb_eq in He. subst x. apply H1 in Hx. now apply negb_true_iff in Hx.
Qed.

Lemma tags_disjoint_r a b t : tags_disjoint a b = true -> tagin t b = true -> tagin t a = false.
Proof.
  intros H1 H2. destruct (tagin t a) eqn:E; [|reflexivity].
  rewrite (tags_disjoint_l a b t H1 E) in H2. discriminate.
Qed.

Lemma pd_pick mi t : forall ms, pairwise_disjoint (map ktags ms) = true -> In mi ms -> tagin t (ktags mi) = true ->
  exists pre post, ms = pre ++ mi :: post /\ forall m, In m pre \/ In m post -> tagin t (ktags m) = false.
Proof.
  induction ms as [|a r IH]; intros Hpd Hin Ht; [destruct Hin|]. cbn [map pairwise_disjoint] in Hpd.
  apply andb_true_iff in Hpd as [Ha Hpd]. rewrite forallb_forall in Ha. destruct Hin as [->|Hin].
  - exists [], r. split; [reflexivity|]. intros m [[]|Hm]. eapply tags_disjoint_l; [apply Ha, in_map, Hm|exact Ht].
  - destruct (IH Hpd Hin Ht) as (pre & post & -> & Hoff). exists (a :: pre), post. split; [reflexivity|].
    intros m [[<-|Hm]|Hm]; auto. eapply tags_disjoint_r; [apply Ha, in_map, in_elt|exact Ht].
Qed.

Definition off (j : json) (m : pk) : Prop := tagin (tag_of j) (ktags m) = false.

Lemma off_class j m : off j m ->
  (has_construct m = false /\ has_transform m = false) \/ (has_construct m = true /\ has_check m = true /\ has_transform m = true).
Proof.
  unfold off. destruct m; intro H; try (left; split; reflexivity); try (right; repeat split; reflexivity); destruct j; discriminate H.
Qed.

Lemma check_tag m j : has_check m = true -> check_type m j = true -> tagin (tag_of j) (ktags m) = true.
Proof.
  intros H1 H2. destruct m; cbv in H1; try discriminate H1; try destruct vt; destruct j; try discriminate H2; reflexivity.
Qed.

Lemma off_check j m : off j m -> has_check m = true -> check_type m j = false.
Proof.
  intros Ho Hk. destruct (check_type m j) eqn:E; [|reflexivity]. apply check_tag in E; auto. unfold off in Ho. congruence.
Qed.

Lemma tag_check k j : k_ok k = true -> tagin (tag_of j) (ktags k) = true -> check_type k j = true.
Proof.
  intros Hk Ht. destruct k; try discriminate Hk; try destruct vt; destruct j; try discriminate Ht; reflexivity.
Qed.

Lemma inst_unset m : inst_match m PUnset = false.
Proof. destruct m; try destruct vt; reflexivity. Qed.

Lemma inst_null m : inst_match m (PJ JNull) = false.
Proof. destruct m; try destruct vt; reflexivity. Qed.

Lemma json_eqb_typed vt x j : vty_of_json vt x = true -> json_eqb j x = true -> j = x.
Proof.
  destruct vt, x; try discriminate; intros _ H; destruct j; try discriminate H; simpl in H.
  - apply Z.eqb_eq in H. now subst.
  - apply str_eqb_eq in H. now subst.
Qed.

Lemma py_eq_typed vt x j : vty_of_json vt x = true -> vty_of_json vt j = true -> py_scalar_eqb j x = true -> j = x.
Proof.
  destruct vt, x; try discriminate; intros _; destruct j; try discriminate; intros _ H; simpl in H.
  - apply Z.eqb_eq in H. now subst.
  - apply str_eqb_eq in H. now subst.
Qed.

Lemma py_eq_refl_typed vt j : vty_of_json vt j = true -> py_scalar_eqb j j = true.
Proof. destruct vt, j; try discriminate; intros _; simpl; [apply Z.eqb_refl | now apply str_eqb_eq]. Qed.

Lemma json_mem_typed vt vals j : forallb (vty_of_json vt) vals = true -> existsb (json_eqb j) vals = true ->
  In j vals /\ vty_of_json vt j = true.
Proof.
  intros H1 H2. rewrite forallb_forall in H1. apply existsb_exists in H2 as (x & Hx & He).
  pose proof (H1 _ Hx) as Ht. apply (json_eqb_typed vt) in He; auto. subst. auto.
Qed.

(* among typed values Python's == is exact, so the enum lookup returns the received value itself *)
Lemma find_typed vt vals j : forallb (vty_of_json vt) vals = true -> vty_of_json vt j = true ->
  find (py_scalar_eqb j) vals = if existsb (py_scalar_eqb j) vals then Some j else None.
Proof.
  intros Hv Hj. induction vals as [|x vals IH]; [reflexivity|].
  cbn [forallb] in Hv. apply andb_true_iff in Hv as [Hx Hv].
  cbn [find existsb]. destruct (py_scalar_eqb j x) eqn:E; cbn [orb]; [|exact (IH Hv)].
  f_equal. symmetry. exact (py_eq_typed vt x j Hx Hj E).
Qed.

Lemma find_valid vt vals j : forallb (vty_of_json vt) vals = true -> existsb (json_eqb j) vals = true ->
  find (py_scalar_eqb j) vals = Some j /\ existsb (py_scalar_eqb j) vals = true.
Proof.
  intros H1 H2. destruct (json_mem_typed _ _ _ H1 H2) as [Hin Ht].
  assert (He: existsb (py_scalar_eqb j) vals = true).
  { apply existsb_exists. exists j. split; [exact Hin|]. eapply py_eq_refl_typed, Ht. }
  split; [|exact He]. now rewrite (find_typed vt), He.
Qed.

Section Eqs.
  Variable orc : oracles.
  Variable T : ctable.
  Variable f : nat.

  Lemma dec_S_pass k j : has_construct k = false -> dec orc T (S f) k j = Some (PJ j).
  Proof. intro H. cbn [dec]. unfold dec_step. now rewrite H. Qed.
  Lemma dec_S_date j : dec orc T (S f) KDate j = match j with JStr s => option_map PDate (parse_date orc s) | _ => None end.
  Proof. reflexivity. Qed.
  Lemma dec_S_datetime j : dec orc T (S f) KDateTime j = match j with JStr s => option_map PDateTime (parse_datetime orc s) | _ => None end.
  Proof. reflexivity. Qed.
  Lemma dec_S_uuid j : dec orc T (S f) KUuid j = match j with JStr s => option_map PUuid (parse_uuid orc s) | _ => None end.
  Proof. reflexivity. Qed.
  Lemma dec_S_const c j : dec orc T (S f) (KConst c) j = if py_scalar_eqb j c then Some (PJ j) else None.
  Proof. reflexivity. Qed.
  Lemma dec_S_enum cls vt vals j :
    dec orc T (S f) (KEnum cls vt vals) j = match find (py_scalar_eqb j) vals with Some v => Some (PEnum cls v) | None => None end.
  Proof. reflexivity. Qed.
  Lemma dec_S_litenum vt vals j : dec orc T (S f) (KLitEnum vt vals) j = if existsb (py_scalar_eqb j) vals then Some (PJ j) else None.
  Proof. reflexivity. Qed.
  Lemma dec_S_list inner j :
    dec orc T (S f) (KList inner) j =
    if has_construct inner then
      match j with
      | JArr l => option_map PList (map_opt (dec orc T f inner) l)
      | JStr s => option_map PList (map_opt (dec orc T f inner) (map (fun c => JStr [c]) s))
      | JObj m => option_map PList (map_opt (dec orc T f inner) (map (fun kv => JStr (fst kv)) m))
      | _ => None
      end
    else Some (PJ j).
  Proof. reflexivity. Qed.
  Lemma dec_S_union ms j : dec orc T (S f) (KUnion ms) j = dec_union (dec orc T f) ms j.
  Proof. reflexivity. Qed.
  Lemma dec_S_model c j : dec orc T (S f) (KModel c) j = dec_model T (dec orc T f) c j.
  Proof. reflexivity. Qed.

  Lemma enc_S_pass k v : has_transform k = false -> enc T (S f) k v = plain v.
  Proof. intro H. cbn [enc]. unfold enc_step. now rewrite H. Qed.
  Lemma enc_S_list inner v :
    enc T (S f) (KList inner) v =
    if has_transform inner then match items v with Some l => option_map JArr (map_opt (enc T f inner) l) | None => None end else plain v.
  Proof. reflexivity. Qed.
  Lemma enc_S_union ms v : enc T (S f) (KUnion ms) v = enc_union_loop (enc T f) ms false false v.
  Proof. reflexivity. Qed.
  Lemma enc_S_model c v : enc T (S f) (KModel c) v = match v with PObj c' fs ad => enc_obj T (enc T f) c' fs ad | _ => None end.
  Proof. reflexivity. Qed.
End Eqs.

(* additional properties: what is left of the object after the declared ones *)
Definition dec_addl (d : pk -> json -> option pv) (cd : cdef) (rest : list (str * json)) : option (list (str * pv)) :=
  match c_addl cd with
  | None => Some []
  | Some ak => if has_construct ak then map_opt_snd (d ak) rest else Some (map (fun kv => (fst kv, PJ (snd kv))) rest)
  end.
Definition enc_addl (e : pk -> pv -> option json) (cd : cdef) (ad : list (str * pv)) : option (list (str * json)) :=
  match c_addl cd with
  | None => Some []
  | Some ak => map_opt_snd (if has_transform ak then e ak else plain) ad
  end.

(* on an object dec_model's general branch is the whole of it: a class without properties gives `PObj c [] []` either way *)
Definition dec_obj (d : pk -> json -> option pv) (c : N) (cd : cdef) (m : list (str * json)) : option pv :=
  match dec_props d (c_props cd) m with
  | None => None
  | Some (fs, rest) => option_map (PObj c fs) (dec_addl d cd rest)
  end.

Lemma dec_model_obj T d c m :
  dec_model T d c (JObj m) = match get_class T c with None => None | Some cd => dec_obj d c cd m end.
Proof.
  unfold dec_model, dec_obj, dec_addl. destruct (get_class T c) as [cd|]; [|reflexivity].
  destruct (c_props cd); destruct (c_addl cd) as [ak|]; try reflexivity;
    (destruct (dec_props d _ m) as [[fs rest]|]; [|reflexivity]);
    (destruct (has_construct ak); [destruct (map_opt_snd (d ak) rest)|]); reflexivity.
Qed.

Lemma enc_obj_eq T e c fs ad :
  enc_obj T e c fs ad = match get_class T c with
                        | None => None
                        | Some cd => match enc_props e (c_props cd) fs, enc_addl e cd ad with
                                     | Some kvs, Some b => Some (JObj (put_all kvs (put_all b [])))
                                     | _, _ => None
                                     end
                        end.
Proof.
  unfold enc_obj, enc_addl. destruct (get_class T c) as [cd|]; [|reflexivity].
  destruct (enc_props e (c_props cd) fs); [|reflexivity]. destruct (c_addl cd) as [ak|]; [destruct (has_transform ak)|]; reflexivity.
Qed.

Lemma map_opt_rt_p {A B} (dd : A -> option B) (ee : B -> option A) (p : B -> bool) l :
  (forall x, In x l -> exists y, dd x = Some y /\ p y = true /\ ee y = Some x) ->
  exists l', map_opt dd l = Some l' /\ forallb p l' = true /\ map_opt ee l' = Some l.
Proof.
  induction l as [|x l IH]; intro H; simpl.
  - exists []. auto.
  - destruct (H x (or_introl eq_refl)) as (y & Hy & Hp & Hx). destruct IH as (l' & H1 & H2 & H3); [intros; apply H; now right|].
    exists (y :: l'). rewrite Hy, H1. simpl. rewrite Hp, H2, Hx, H3. auto.
Qed.

Lemma map_opt_rt {A B} (dd : A -> option B) (ee : B -> option A) l :
  (forall x, In x l -> exists y, dd x = Some y /\ ee y = Some x) ->
  exists l', map_opt dd l = Some l' /\ map_opt ee l' = Some l.
Proof.
  intro H. destruct (map_opt_rt_p dd ee (fun _ => true) l) as (l' & H1 & _ & H2); [|eauto].
  intros x Hx. destruct (H x Hx) as (y & Hy & Hx'). eauto.
Qed.

Lemma map_opt_snd_rt_p {A B} (dd : A -> option B) (ee : B -> option A) (p : B -> bool) (l : list (str * A)) :
  (forall k x, In (k, x) l -> exists y, dd x = Some y /\ p y = true /\ ee y = Some x) ->
  exists l', map_opt_snd dd l = Some l' /\ forallb (fun kv => p (snd kv)) l' = true /\ map_opt_snd ee l' = Some l.
Proof.
  induction l as [|[k x] l IH]; intro H; simpl.
  - exists []. auto.
  - destruct (H k x (or_introl eq_refl)) as (y & Hy & Hp & Hx). destruct IH as (l' & H1 & H2 & H3); [intros; eapply H; right; eauto|].
    exists ((k, y) :: l'). rewrite Hy, H1. simpl. rewrite Hp, H2, Hx, H3. auto.
Qed.

Lemma map_opt_snd_keys {A B} (ff : A -> option B) (l : list (str * A)) : forall l', map_opt_snd ff l = Some l' -> map fst l' = map fst l.
Proof.
  induction l as [|[k x] l IH]; simpl; intros l' H.
  - injection H as <-. reflexivity.
  - destruct (ff x); [|discriminate]. destruct (map_opt_snd ff l) as [r|]; [|discriminate]. injection H as <-. simpl. f_equal. auto.
Qed.

Lemma map_opt_snd_pj (l : list (str * json)) : map_opt_snd plain (map (fun kv => (fst kv, PJ (snd kv))) l) = Some l.
Proof. induction l as [|[k x] l IH]; simpl; [reflexivity|]. now rewrite IH. Qed.

Lemma plain_list vs : plain (PList vs) = option_map JArr (map_opt plain vs).
Proof. simpl. f_equal. induction vs as [|x vs IH]; simpl; [reflexivity|]. now rewrite IH. Qed.

Lemma wf_obj m : wf_json (JObj m) = m_sorted m && forallb (fun kv => wf_json (snd kv)) m.
Proof.
  simpl. f_equal. induction m as [|[k v] m IH]; simpl; [reflexivity|]. now rewrite IH.
Qed.

Lemma wf_arr l : wf_json (JArr l) = forallb wf_json l.
Proof. reflexivity. Qed.

Definition lookf (name : str) : list (str * pv) -> option pv :=
  fix look (fs : list (str * pv)) : option pv :=
    match fs with [] => None | (n, v) :: r => if str_eqb n name then Some v else look r end.

Lemma lookf_hit n v fs : lookf n ((n, v) :: fs) = Some v.
Proof. simpl. now rewrite str_eqb_refl. Qed.

Lemma lookf_skip n n' v fs : n' <> n -> lookf n ((n', v) :: fs) = lookf n fs.
Proof. intro H. simpl. now rewrite (str_eqb_neq n' n H). Qed.

Lemma wt_props_cons w n req k ps fs :
  wt_props w ((n, (req, k)) :: ps) fs =
  match lookf n fs with Some v => wt_field w k req v && wt_props w ps fs | None => false end.
Proof. reflexivity. Qed.

Lemma enc_props_cons e n req k ps fs :
  enc_props e ((n, (req, k)) :: ps) fs =
  match lookf n fs with
  | None => None
  | Some v => match enc_field e k req v with
              | None => None
              | Some o => match enc_props e ps fs with
                          | None => None
                          | Some r => Some (match o with Some j => (n, j) :: r | None => r end)
                          end
              end
  end.
Proof. reflexivity. Qed.

Lemma wt_props_skip w n v fs ps : ~ In n (map fst ps) -> wt_props w ps ((n, v) :: fs) = wt_props w ps fs.
Proof.
  induction ps as [|[n' [req k]] ps IH]; intro H; [reflexivity|]. rewrite !wt_props_cons. simpl in H.
  rewrite lookf_skip by (intro; subst; apply H; now left). rewrite IH by tauto. reflexivity.
Qed.

Lemma enc_props_skip e n v fs ps : ~ In n (map fst ps) -> enc_props e ps ((n, v) :: fs) = enc_props e ps fs.
Proof.
  induction ps as [|[n' [req k]] ps IH]; intro H; [reflexivity|]. rewrite !enc_props_cons. simpl in H.
  rewrite lookf_skip by (intro; subst; apply H; now left). rewrite IH by tauto. reflexivity.
Qed.

Lemma wt_unset T f : forall k, wt T f k PUnset = false.
Proof.
  induction f as [|f IH]; intro k; [reflexivity|]. cbn [wt]. destruct k; try reflexivity.
  cbn [wt_step]. induction ms as [|m ms IHms]; simpl; [reflexivity|]. now rewrite IH.
Qed.

Lemma wt_model_inv T f c c' fs ad : wt T (S f) (KModel c) (PObj c' fs ad) = true ->
  exists cd, get_class T c = Some cd /\ c' = c /\ wt_props (wt T f) (c_props cd) fs = true /\
             match c_addl cd with
             | Some ak => forallb (fun kv => wt T f ak (snd kv)) ad
             | None => match ad with [] => true | _ => false end
             end = true.
Proof.
  cbn [wt wt_step]. destruct (get_class T c) as [cd|]; [|discriminate]. intro H.
  apply andb_true_iff in H as [H Had]. apply andb_true_iff in H as [Hc Hwp]. apply N.eqb_eq in Hc. eauto.
Qed.

Lemma wt_field_cases w k req v : wt_field w k req v = true -> (v = PUnset /\ req = false) \/ (v <> PUnset /\ w k v = true).
Proof.
  destruct v; simpl; intro H; try (right; split; [discriminate|exact H]).
  left. split; auto. now destruct req.
Qed.

Lemma wt_field_of_wt T f k req v : wt T f k v = true -> wt_field (wt T f) k req v = true.
Proof. intro H. destruct v; auto. rewrite wt_unset in H. discriminate. Qed.

Definition is_nil {A} (l : list A) : bool := match l with [] => true | _ => false end.
Lemma is_nil_app {A} (pre rest : list A) : rest <> [] -> is_nil (pre ++ rest) = false.
Proof. intro H. destruct pre; simpl; [|reflexivity]. destruct rest; [contradiction|reflexivity]. Qed.

Lemma dec_union_loop_cons d m rest unmod j :
  dec_union_loop d (m :: rest) unmod j =
  if negb (has_construct m) then dec_union_loop d rest true j
  else if has_check m && (negb (is_nil rest) || unmod) then
         if check_type m j then match d m j with Some v => Some v | None => dec_union_loop d rest unmod j end
         else dec_union_loop d rest unmod j
       else if has_check m && negb (check_type m j) then None else d m j.
Proof. reflexivity. Qed.

Lemma enc_union_loop_cons e m rest hi un v :
  enc_union_loop e (m :: rest) hi un v =
  if negb (has_transform m) then enc_union_loop e rest hi true v
  else if negb hi || negb (is_nil rest) || un then
         if inst_match m v then e m v else enc_union_loop e rest true un v
       else e m v.
Proof. reflexivity. Qed.

Lemma enc_loop_unset e ms : (forall m, e m PUnset = None) -> forall hi un, enc_union_loop e ms hi un PUnset = None.
Proof.
  intro H. induction ms as [|m rest IH]; intros hi un; [reflexivity|]. rewrite enc_union_loop_cons, inst_unset.
  destruct (negb (has_transform m)); [apply IH|]. destruct (negb hi || negb (is_nil rest) || un); [apply IH|apply H].
Qed.

Lemma enc_unset T g : forall k, enc T g k PUnset = None.
Proof.
  induction g as [|g IH]; intro k; [reflexivity|]. destruct k; try reflexivity.
  - rewrite enc_S_list. destruct (has_transform k); reflexivity.
  - rewrite enc_S_union. now apply enc_loop_unset.
Qed.

Lemma enc_S_plist T g inner vs :
  enc T (S g) (KList inner) (PList vs) = option_map JArr (map_opt (if has_transform inner then enc T g inner else plain) vs).
Proof. rewrite enc_S_list. destruct (has_transform inner); [reflexivity|apply plain_list]. Qed.

Lemma enc_plain T g k v j : has_transform k = false -> enc T g k v = Some j -> plain v = Some j.
Proof. intros Ht H. destruct g; [discriminate|]. now rewrite enc_S_pass in H. Qed.

(* has_if = negb req: after `if isinstance(x, Unset)` the union members start with `elif` *)
Lemma enc_field_set e k req v : v <> PUnset -> enc_field e k req v =
  if has_transform k then match k with
                          | KUnion ms => option_map Some (enc_union_loop e ms (negb req) false v)
                          | _ => option_map Some (e k v)
                          end
  else option_map Some (plain v).
Proof. intro Hv. destruct v; [congruence|..]; reflexivity. Qed.

(* C10: UNSET is never transmitted, whatever the kind *)
Theorem unset_not_encoded : forall e k, enc_field e k false PUnset = Some None.
Proof. intros e k. unfold enc_field. destruct (has_transform k); [destruct k|]; reflexivity. Qed.

(* has_transform (KUnion ms) is a regenerated fact (kf_union) *)
Lemma enc_field_union e ms req v : v <> PUnset ->
  enc_field e (KUnion ms) req v = option_map Some (enc_union_loop e ms (negb req) false v).
Proof. intro Hv. now rewrite enc_field_set. Qed.

Lemma field_of_enc T g k v j req : (forall ms, k <> KUnion ms) -> enc T g k v = Some j -> enc_field (enc T g) k req v = Some (Some j).
Proof.
  intros Hnu H. rewrite enc_field_set by (intros ->; rewrite enc_unset in H; discriminate H).
  destruct (has_transform k) eqn:Et.
  - destruct k; try (rewrite H; reflexivity). exfalso. eapply Hnu. reflexivity.
  - now rewrite (enc_plain _ _ _ _ _ Et H).
Qed.

Section UnionLoops.
  Variable d : pk -> json -> option pv.
  Variable e : pk -> pv -> option json.

  Lemma dec_loop_off j ms : (forall m, In m ms -> off j m) -> dec_union_loop d ms true j = Some (PJ j).
  Proof.
    induction ms as [|m ms IH]; intro Hoff; [reflexivity|]. rewrite dec_union_loop_cons.
    destruct (off_class j m (Hoff m (or_introl eq_refl))) as [[Hc Ht]|(Hc & Hk & Ht)]; rewrite Hc; cbn [negb].
    - apply IH. intros; apply Hoff; now right.
    - rewrite Hk, orb_true_r. cbn [andb]. rewrite (off_check j m (Hoff m (or_introl eq_refl)) Hk). apply IH. intros; apply Hoff; now right.
  Qed.

  (* members that cannot have j's tag are passed over *)
  Lemma dec_loop_member pre mi post j v :
    (has_construct mi = false -> v = PJ j) -> (has_check mi = true -> check_type mi j = true) -> d mi j = Some v ->
    (forall m, In m pre \/ In m post -> off j m) ->
    forall unmod, dec_union_loop d (pre ++ mi :: post) unmod j = Some v.
  Proof.
    intros Hpass Hk Hd. induction pre as [|m pre IH]; intros Hoff unmod.
    - simpl app. rewrite dec_union_loop_cons. destruct (has_construct mi); cbn [negb].
      + destruct (has_check mi); cbn [andb]; [|exact Hd]. rewrite (Hk eq_refl), Hd. now destruct (_ || unmod).
      + rewrite (Hpass eq_refl). apply dec_loop_off. auto.
    - assert (Hm: off j m) by (apply Hoff; left; now left).
      assert (Hoff': forall m', In m' pre \/ In m' post -> off j m') by (intros m' [H|H]; apply Hoff; [left; now right|now right]).
      rewrite <- app_comm_cons, dec_union_loop_cons.
      destruct (off_class j m Hm) as [[Hc _]|(Hc & Hck & _)]; rewrite Hc; cbn [negb].
      + now apply IH.
      + rewrite Hck, is_nil_app by discriminate. cbn [negb andb orb]. rewrite (off_check j m Hm Hck). now apply IH.
  Qed.

  (* the chain returns the transform of a member whose test v passes, v itself if it passes none; the bare `else:` of the
     last member is out of reach when some member has no transform or accepts v *)
  Lemma enc_loop_cases (Q : option json -> Prop) v ms :
    (forall m, In m ms -> has_transform m = true -> inst_match m v = true -> Q (e m v)) ->
    ((forall m, In m ms -> has_transform m = true -> inst_match m v = false) -> Q (plain v)) ->
    forall hi un, un = true \/ (exists m, In m ms /\ (has_transform m = false \/ inst_match m v = true)) ->
    Q (enc_union_loop e ms hi un v).
  Proof.
    induction ms as [|m rest IH]; intros Hhit Hnone hi un Hun.
    - apply Hnone. intros m [].
    - assert (Hhit': forall m', In m' rest -> has_transform m' = true -> inst_match m' v = true -> Q (e m' v))
        by (intros; apply Hhit; auto; now right).
      rewrite enc_union_loop_cons. destruct (has_transform m) eqn:Et; cbn [negb].
      + destruct (inst_match m v) eqn:Ei.
        { assert (Q (e m v)) by (apply Hhit; auto; now left). now destruct (_ || un). }
        assert (Hnone': (forall m', In m' rest -> has_transform m' = true -> inst_match m' v = false) -> Q (plain v)).
        { intro Hn. apply Hnone. intros m' [<-|Hm']; auto. }
        destruct Hun as [->|(m' & [<-|Hm'] & Hacc)].
        * rewrite orb_true_r. apply IH; auto.
        * destruct Hacc; congruence.
        * assert (Hr: is_nil rest = false) by (destruct rest; [destruct Hm'|reflexivity]).
          rewrite Hr. cbn [negb]. rewrite orb_true_r. apply IH; auto. right. exists m'. auto.
      + apply IH; auto. intro Hn. apply Hnone. intros m' [<-|Hm'] Ht'; [congruence|auto].
  Qed.

  Lemma enc_loop_null ms : existsb is_knone ms = true -> forall hi un, enc_union_loop e ms hi un (PJ JNull) = Some JNull.
  Proof.
    intros Hn hi un. apply enc_loop_cases.
    - intros m _ _ Hi. rewrite inst_null in Hi. discriminate Hi.
    - reflexivity.
    - right. apply existsb_exists in Hn as (m & Hin & Hm). exists m. split; [exact Hin|]. left. now destruct m.
  Qed.
End UnionLoops.

Definition vtag (v : pv) : jtag :=
  match v with
  | PUnset => TNull
  | PJ j => tag_of j
  | PDate _ | PDateTime _ | PUuid _ => TStr
  | PEnum _ x => tag_of x
  | PList _ => TArr
  | PObj _ _ _ => TObj
  end.

Lemma wt_tag_inst T w m v : has_transform m = true -> is_union m = false -> k_ok m = true ->
  wt_step T w m v = true -> tagin (vtag v) (ktags m) = true /\ inst_match m v = true.
Proof.
  intros Ht Hnu Hk H. destruct m; try discriminate Ht; try discriminate Hnu; cbn [wt_step] in H.
  1-3: destruct v; try discriminate H; split; reflexivity.     (* KDate, KDateTime, KUuid *)
  - (* KFile *) discriminate H.
  - (* KEnum *) destruct v as [| | | | |c' x| |]; try discriminate H. apply andb_true_iff in H as [Hc Hx].
    simpl in Hk. apply (json_mem_typed vt) in Hx as [_ Hty]; auto. split; [|exact Hc].
    destruct vt, x; try discriminate Hty; reflexivity.
  - (* KLitEnum *) destruct v as [|j| | | | | |]; try discriminate H. simpl in Hk.
    rewrite forallb_forall in Hk. apply existsb_exists in H as (x & Hx & He). apply Hk in Hx.
    destruct vt, x; try discriminate Hx; destruct j; try discriminate He; split; reflexivity.
  - (* KList *) destruct v as [|j| | | | |l|]; try discriminate H; [destruct j; try discriminate H|]; split; reflexivity.
  - (* KModel *) destruct v as [| | | | | | |c' fs ad]; try discriminate H. destruct (get_class T cls); [|discriminate H].
    apply andb_true_iff in H as [H _]. apply andb_true_iff in H as [H _]. split; [reflexivity|exact H].
Qed.

(* only an Enum member passes the test on a value whose tag it has not, and all Enum members transform alike *)
Lemma enum_inst_same T w g mi m v : is_union mi = false -> wt_step T w mi v = true ->
  inst_match m v = true -> tagin (vtag v) (ktags m) = false -> enc T (S g) m v = enc T (S g) mi v.
Proof.
  intros Hnu Hw Hi Ho.
  destruct v as [|j|s|s|s|c0 x|l|c0 fs ad]; [rewrite inst_unset in Hi; discriminate Hi|..].
  all: destruct m; try discriminate Hi; try discriminate Ho; try (destruct vt; discriminate Hi).
  - (* PJ, KLitEnum *) destruct vt, j; discriminate Hi || discriminate Ho.
  - (* PJ, KList *) destruct j; discriminate Hi || discriminate Ho.
  - (* PEnum, KEnum *) destruct mi; try discriminate Hw; [reflexivity|discriminate Hnu].
  - (* PEnum, KLitEnum *) destruct vt, x; discriminate Hi || discriminate Ho.
Qed.

Lemma wt_no_transform_pj T w m v : has_transform m = false -> wt_step T w m v = true -> exists j, v = PJ j.
Proof.
  intros Ht H. destruct m; try discriminate Ht; cbn [wt_step] in H; destruct v; try discriminate H; eauto.
Qed.

(* on raw JSON only a literal enum (copies it) or a list member (overlaps) passes the test *)
Lemma pj_inst_other T g w mi m j : has_transform mi = false -> wt_step T w mi (PJ j) = true -> inst_match m (PJ j) = true ->
  enc T (S g) m (PJ j) = Some j \/ (tagin (tag_of j) (ktags mi) = true /\ tagin (tag_of j) (ktags m) = true).
Proof.
  intros Hnt Hw Hi. destruct m; try discriminate Hi.
  - left. reflexivity.
  - destruct j; try discriminate Hi. right. split; [|reflexivity].
    destruct mi; try discriminate Hnt; cbn [wt_step] in Hw; try discriminate Hw; try reflexivity.
Qed.

(* on a value typed for its member mi the isinstance chain does what mi's encoder does *)
Lemma union_enc_member T w g ms mi v : pairwise_disjoint (map ktags ms) = true -> In mi ms ->
  is_union mi = false -> k_ok mi = true -> wt_step T w mi v = true ->
  forall hi un, enc_union_loop (enc T (S g)) ms hi un v = enc T (S g) mi v.
Proof.
  intros Hpd Hin Hnu Hk Hw hi un. destruct (has_transform mi) eqn:Ht.
  - destruct (wt_tag_inst T w mi v Ht Hnu Hk Hw) as [Htag Hinst].
    destruct (pd_pick mi (vtag v) ms Hpd Hin Htag) as (pre & post & -> & Hoff).
    apply enc_loop_cases.
    + intros m Hm _ Hi. apply in_app_or in Hm as [Hm|[<-|Hm]]; [|reflexivity|]; eapply enum_inst_same; eauto.
    + intro Hnone. rewrite (Hnone mi (in_elt mi pre post) Ht) in Hinst. discriminate Hinst.
    + right. exists mi. split; [apply in_elt|now right].
  - destruct (wt_no_transform_pj T w mi v Ht Hw) as (j & ->). rewrite enc_S_pass by exact Ht. apply enc_loop_cases.
    + intros m Hm Htm Hi. destruct (pj_inst_other T g w mi m j Ht Hw Hi) as [He|[H1 H2]]; [exact He|]. exfalso.
      destruct (pd_pick mi (tag_of j) ms Hpd Hin H1) as (pre & post & -> & Hoff).
      apply in_app_or in Hm as [Hm|[<-|Hm]]; [|congruence|]; rewrite Hoff in H2 by auto; discriminate H2.
    + reflexivity.
    + right. exists mi. split; [exact Hin|now left].
Qed.

Lemma k_ok_union ms : k_ok (KUnion ms) = true ->
  pairwise_disjoint (map ktags ms) = true /\ forall m, In m ms -> is_union m = false /\ k_ok m = true.
Proof.
  intro H. simpl in H. apply andb_true_iff in H as [H H3]. apply andb_true_iff in H as [_ H2].
  split; [exact H2|]. clear H2. induction ms as [|m0 r IH]; [intros ? []|].
  apply andb_true_iff in H3 as [H3 H4]. apply andb_true_iff in H3 as [H3a H3b].
  intros m [<-|Hin]; [|apply IH; auto]. split; [now apply negb_true_iff|exact H3b].
Qed.

Lemma valid_tag orc T f k j : k_ok k = true -> valid orc T (S f) k j = true -> tagin (tag_of j) (ktags k) = true.
Proof.
  intros Hk Hv. destruct k; cbn [valid valid_step is_str] in Hv; try discriminate Hv;
    try (destruct j; try discriminate Hv; reflexivity).
  1-2: apply (json_mem_typed vt) in Hv as [_ Ht]; auto; destruct vt, j; try discriminate Ht; reflexivity.
  destruct (get_class T cls); destruct j; try discriminate Hv; reflexivity.
Qed.

Lemma dec_no_transform orc T f k j v : has_transform k = false -> dec orc T f k j = Some v -> v = PJ j.
Proof.
  intros Ht Hd. destruct f; [discriminate Hd|]. destruct (has_construct k) eqn:Hc.
  - destruct (construct_no_transform_const k Hc Ht) as [c ->]. rewrite dec_S_const in Hd.
    destruct (py_scalar_eqb j c); [now injection Hd|discriminate Hd].
  - rewrite dec_S_pass in Hd by exact Hc. now injection Hd.
Qed.

Lemma table_cdef T c cd : table_ok T = true -> get_class T c = Some cd ->
  forallb (fun p => k_ok (snd (snd p))) (c_props cd) = true /\ names_distinct (c_props cd) = true /\
  match c_addl cd with Some ak => k_ok ak | None => true end = true.
Proof.
  unfold table_ok, get_class. intros HT Hc. apply nth_error_In in Hc. rewrite forallb_forall in HT. apply HT in Hc.
  unfold cdef_ok in Hc. apply andb_true_iff in Hc as [Hc Hak]. apply andb_true_iff in Hc as [Hkp Hnd]. auto.
Qed.

Lemma names_distinct_cons n x ps : names_distinct ((n, x) :: ps) = negb (existsb (str_eqb n) (map fst ps)) && names_distinct ps.
Proof. reflexivity. Qed.

Lemma valid_props_sub vd ps : forall m rest, m_sorted m = true -> valid_props vd ps m = Some rest ->
  m_sorted rest = true /\ forall x, In x rest -> In x m.
Proof.
  induction ps as [|[n [req k]] ps IH]; simpl; intros m rest Hs H.
  - injection H as <-. auto.
  - destruct (m_get n m) as [j|] eqn:Eg.
    + destruct (vd k j); [|discriminate]. apply IH in H as [H1 H2]; [|now apply m_sorted_del].
      split; auto. intros. eapply m_del_In; eauto.
    + destruct req; [discriminate|]. eauto.
Qed.

Lemma enc_props_names e ps : forall fs kvs, enc_props e ps fs = Some kvs -> forall n, In n (map fst kvs) -> In n (map fst ps).
Proof.
  induction ps as [|[n0 [req k]] ps IH]; intros fs kvs H.
  - injection H as <-. intros n [].
  - rewrite enc_props_cons in H. destruct (lookf n0 fs) as [v|]; [|discriminate H].
    destruct (enc_field e k req v) as [o|]; [|discriminate H]. destruct (enc_props e ps fs) as [r|] eqn:Er; [|discriminate H].
    injection H as <-. intros n Hin. simpl.
    destruct o; simpl in Hin; [destruct Hin as [<-|Hin]|]; eauto.
Qed.

Definition enc_ok T g k v j := enc T g k v = Some j /\ forall req, enc_field (enc T g) k req v = Some (Some j).

Lemma enc_ok_intro {T g k v j} : is_union k = false -> enc T g k v = Some j -> enc_ok T g k v j.
Proof. intros Hn He. split; [exact He|]. intro req. apply field_of_enc; [now apply not_union|exact He]. Qed.

Definition rt_ok orc T f g k j := exists v, dec orc T f k j = Some v /\ wt T f k v = true /\ enc_ok T g k v j.

Lemma rt_ok_intro {orc T f g k j} v : is_union k = false -> dec orc T f k j = Some v -> wt T f k v = true ->
  enc T g k v = Some j -> rt_ok orc T f g k j.
Proof. intros Hn Hd Hw He. exists v. auto using enc_ok_intro. Qed.

Section Level.
  Variables (orc : oracles) (T : ctable) (f : nat).
  Hypothesis HT : table_ok T = true.
  Hypothesis IH : forall g k j, (f <= g)%nat -> k_ok k = true -> wf_json j = true -> valid orc T f k j = true -> rt_ok orc T f g k j.

  Lemma elem_rt g k x : (f <= g)%nat -> k_ok k = true -> wf_json x = true -> valid orc T f k x = true ->
    exists y, dec orc T f k x = Some y /\ wt T f k y = true /\ (if has_transform k then enc T g k else plain) y = Some x.
  Proof.
    intros Hg Hk Hw Hv. destruct (IH g k x Hg Hk Hw Hv) as (y & Hd & Hwt & He & _). exists y. repeat split; auto.
    destruct (has_transform k) eqn:Et; [exact He|]. eapply enc_plain; eauto.
  Qed.

  Lemma pj_wt k x : has_construct k = false -> k_ok k = true -> wf_json x = true -> valid orc T f k x = true ->
    wt T f k (PJ x) = true.
  Proof.
    intros Hc Hk Hw Hv. destruct (IH f k x (le_n f) Hk Hw Hv) as (y & Hd & Hwt & _).
    now rewrite (dec_no_transform orc T f k x y (no_construct_no_transform k Hc) Hd) in Hwt.
  Qed.

  Lemma klist_rt g inner j : (f <= g)%nat -> k_ok inner = true -> wf_json j = true -> valid orc T (S f) (KList inner) j = true ->
    rt_ok orc T (S f) (S g) (KList inner) j.
  Proof.
    intros Hg Hk Hw Hv. cbn [valid valid_step] in Hv. destruct j; try discriminate Hv. rewrite wf_arr in Hw.
    rewrite forallb_forall in Hw, Hv.
    destruct (has_construct inner) eqn:Ec.
    - destruct (map_opt_rt_p (dec orc T f inner) (if has_transform inner then enc T g inner else plain) (wt T f inner) l)
        as (vs & H1 & H2 & H3); [intros x Hx; apply elem_rt; auto|].
      apply (rt_ok_intro (PList vs)); [reflexivity| |exact H2|].
      + rewrite dec_S_list, Ec, H1. reflexivity.
      + now rewrite enc_S_plist, H3.
    - apply (rt_ok_intro (PJ (JArr l))); [reflexivity| | |].
      + now rewrite dec_S_list, Ec.
      + cbn [wt wt_step]. apply forallb_forall. intros x Hx. apply pj_wt; auto.
      + now rewrite enc_S_list, (no_construct_no_transform _ Ec).
  Qed.

  Lemma field_rt g k req j : (f <= g)%nat -> k_ok k = true -> wf_json j = true -> valid orc T f k j = true ->
    exists v, dec_field (dec orc T f) k req (Some j) = Some v /\ wt_field (wt T f) k req v = true /\
              enc_field (enc T g) k req v = Some (Some j).
  Proof.
    intros Hg Hk Hw Hv. destruct (IH g k j Hg Hk Hw Hv) as (v & Hd & Hwt & He & Hf).
    exists v. split; [|split; [apply wt_field_of_wt, Hwt | apply Hf]].
    unfold dec_field. destruct k; try exact Hd.
    destruct (has_construct (KList k) && has_construct k && negb req && falsy j) eqn:Ec; [|exact Hd].
    (* `for x in (_data or [])`: a falsy valid instance is the empty array, which decodes to the empty list anyway *)
    apply andb_true_iff in Ec as [Ec Hfal]. apply andb_true_iff in Ec as [Ec _]. apply andb_true_iff in Ec as [_ Hc].
    destruct f as [|f']; [discriminate Hv|]. cbn [valid valid_step] in Hv. destruct j; try discriminate Hv.
    destruct l; [|discriminate Hfal]. rewrite dec_S_list, Hc in Hd. exact Hd.
  Qed.

  Lemma props_rt g : (f <= g)%nat -> forall ps m rest, m_sorted m = true -> forallb (fun kv => wf_json (snd kv)) m = true ->
    forallb (fun p => k_ok (snd (snd p))) ps = true -> names_distinct ps = true ->
    valid_props (valid orc T f) ps m = Some rest ->
    exists fs kvs, dec_props (dec orc T f) ps m = Some (fs, rest) /\ wt_props (wt T f) ps fs = true /\
                   enc_props (enc T g) ps fs = Some kvs /\ put_all kvs rest = m.
  Proof.
    intro Hg. induction ps as [|[n [req k]] ps IHps]; intros m rest Hs Hw Hk Hn Hv.
    - simpl in Hv. injection Hv as <-. exists [], []. simpl. auto.
    - rewrite names_distinct_cons in Hn. apply andb_true_iff in Hn as [Hn1 Hn2].
      apply negb_true_iff, mem_str_false in Hn1.
      cbn [forallb snd] in Hk. apply andb_true_iff in Hk as [Hk1 Hk2].
      cbn [valid_props] in Hv. cbn [dec_props].
      destruct (m_get n m) as [j|] eqn:Eg.
      + destruct (valid orc T f k j) eqn:Ev; [|discriminate Hv].
        assert (Hwj: wf_json j = true).
        { rewrite forallb_forall in Hw. apply (Hw (n, j)). now apply m_get_In. }
        destruct (field_rt g k req j Hg Hk1 Hwj Ev) as (v & Hdf & Hwf & Hef).
        destruct (IHps (m_del n m) rest) as (fs & kvs & Hd & Hwp & He & Hp); auto.
        { now apply m_sorted_del. }
        { rewrite forallb_forall in Hw |- *. intros x Hx. apply Hw. eapply m_del_In, Hx. }
        exists ((n, v) :: fs), ((n, j) :: kvs). rewrite Hdf, Hd. split; [reflexivity|].
        rewrite wt_props_cons, enc_props_cons, lookf_hit. rewrite wt_props_skip, enc_props_skip by exact Hn1.
        rewrite Hwf, Hwp, Hef, He. repeat split.
        destruct (valid_props_sub _ _ _ _ (m_sorted_del n m Hs) Hv) as [Hsr _].
        cbn [put_all]. rewrite put_all_comm, Hp; auto; [now apply m_put_del|].
        intro Hin. apply Hn1. eapply enc_props_names; eauto.
      + destruct req; [discriminate Hv|].
        destruct (IHps m rest) as (fs & kvs & Hd & Hwp & He & Hp); auto.
        exists ((n, PUnset) :: fs), kvs. cbn [dec_field]. rewrite (m_del_absent n m Eg), Hd. split; [reflexivity|].
        rewrite wt_props_cons, enc_props_cons, lookf_hit. rewrite wt_props_skip, enc_props_skip by exact Hn1.
        rewrite Hwp, unset_not_encoded, He. auto.
  Qed.

  Lemma addl_rt g cd rest : (f <= g)%nat -> match c_addl cd with Some ak => k_ok ak | None => true end = true ->
    (forall k x, In (k, x) rest -> wf_json x = true) ->
    (forall ak, c_addl cd = Some ak -> forallb (fun kv => valid orc T f ak (snd kv)) rest = true) ->
    exists ad, dec_addl (dec orc T f) cd rest = Some ad /\
               match c_addl cd with
               | Some ak => forallb (fun kv => wt T f ak (snd kv)) ad
               | None => match ad with [] => true | _ => false end
               end = true /\
               enc_addl (enc T g) cd ad = Some (match c_addl cd with None => [] | Some _ => rest end).
  Proof.
    intros Hg Hak Hwr Hv. unfold dec_addl, enc_addl. destruct (c_addl cd) as [ak|]; [|exists []; auto].
    specialize (Hv ak eq_refl). rewrite forallb_forall in Hv. destruct (has_construct ak) eqn:Eca.
    - apply map_opt_snd_rt_p. intros k x Hin. apply elem_rt; auto; [eapply Hwr, Hin | exact (Hv (k, x) Hin)].
    - eexists. split; [reflexivity|]. split.
      + apply forallb_forall. intros kv Hin. apply in_map_iff in Hin as ([k x] & <- & Hin).
        apply pj_wt; [exact Eca|exact Hak|eapply Hwr, Hin|exact (Hv (k, x) Hin)].
      + rewrite (no_construct_no_transform _ Eca). apply map_opt_snd_pj.
  Qed.

  Lemma kmodel_rt g c j : (f <= g)%nat -> wf_json j = true -> valid orc T (S f) (KModel c) j = true ->
    rt_ok orc T (S f) (S g) (KModel c) j.
  Proof.
    intros Hg Hw Hv. cbn [valid valid_step] in Hv. destruct (get_class T c) as [cd|] eqn:Ec; [|discriminate Hv].
    destruct j; try discriminate Hv. destruct (valid_props (valid orc T f) (c_props cd) m) as [rest|] eqn:Evp; [|discriminate Hv].
    destruct (table_cdef T c cd HT Ec) as (Hkp & Hnd & Hak).
    rewrite wf_obj in Hw. apply andb_true_iff in Hw as [Hs Hwv].
    destruct (props_rt g Hg (c_props cd) m rest Hs Hwv Hkp Hnd Evp) as (fs & kvs & Hdp & Hwp & Hep & Hput).
    destruct (valid_props_sub _ _ _ _ Hs Evp) as [Hsr Hsub].
    destruct (addl_rt g cd rest Hg Hak) as (ad & Hda & Hwa & Hea).
    { intros k x Hin. rewrite forallb_forall in Hwv. apply (Hwv (k, x)). auto. }
    { intros ak Ea. now rewrite Ea in Hv. }
    apply (rt_ok_intro (PObj c fs ad)); [reflexivity| | |].
    - rewrite dec_S_model, dec_model_obj, Ec. unfold dec_obj. now rewrite Hdp, Hda.
    - cbn [wt wt_step]. now rewrite Ec, N.eqb_refl, Hwp.
    - rewrite enc_S_model, enc_obj_eq, Ec, Hep, Hea. f_equal. f_equal. destruct (c_addl cd).
      + now rewrite put_all_self.
      + destruct rest; [|discriminate Hv]. exact Hput.
  Qed.

  Lemma union_rt g ms j : (f <= g)%nat -> k_ok (KUnion ms) = true -> wf_json j = true ->
    existsb (fun m => valid orc T f m j) ms = true ->
    exists v, dec_union (dec orc T f) ms j = Some v /\ existsb (fun m => wt T f m v) ms = true /\
              forall hi, enc_union_loop (enc T g) ms hi false v = Some j.
  Proof.
    intros Hg Hk Hw Hv. unfold dec_union. apply existsb_exists in Hv as (mi & Hin & Hv).
    destruct f as [|f']; [discriminate Hv|].
    destruct (existsb is_knone ms && json_eqb j JNull) eqn:Esc.
    - apply andb_true_iff in Esc as [Hn Hj]. destruct j; try discriminate Hj.
      exists (PJ JNull). split; [reflexivity|]. split; [|intro hi; now apply enc_loop_null].
      apply existsb_exists in Hn as (m & Hm & Hn). apply existsb_exists. exists m. split; [exact Hm|]. now destruct m.
    - clear Esc. destruct (k_ok_union ms Hk) as (Hpd & Hmem). destruct (Hmem mi Hin) as [Hnu Hkmi].
      destruct (IH g mi j Hg Hkmi Hw Hv) as (v & Hd & Hwt & He & _).
      exists v. split; [|split].
      + pose proof (valid_tag orc T f' mi j Hkmi Hv) as Htag.
        destruct (pd_pick mi (tag_of j) ms Hpd Hin Htag) as (pre & post & -> & Hoff).
        apply dec_loop_member; auto.
        * intro Hc. eapply dec_no_transform; [apply no_construct_no_transform, Hc | exact Hd].
        * intros _. now apply tag_check.
      + apply existsb_exists. exists mi. auto.
      + (* v is typed for mi, so the encoder's isinstance chain comes to mi's transform *)
        destruct g as [|g']; [discriminate He|]. cbn [wt] in Hwt. intro hi.
        now rewrite (union_enc_member T _ g' ms mi v Hpd Hin Hnu Hkmi Hwt).
  Qed.

  Lemma kunion_rt g ms j : (f <= g)%nat -> k_ok (KUnion ms) = true -> wf_json j = true -> valid orc T (S f) (KUnion ms) j = true ->
    rt_ok orc T (S f) (S g) (KUnion ms) j.
  Proof.
    intros Hg Hk Hw Hv. cbn [valid valid_step] in Hv.
    destruct (union_rt g ms j Hg Hk Hw Hv) as (v & Hd & Hwt & He).
    assert (Hg': (f <= S g)%nat) by lia.
    destruct (union_rt (S g) ms j Hg' Hk Hw Hv) as (v' & Hd' & _ & He').
    rewrite Hd in Hd'. injection Hd' as <-.
    exists v. split; [now rewrite dec_S_union|]. split; [exact Hwt|].
    split; [rewrite enc_S_union; apply He|].
    (* as an attribute the loop runs on the encoder of this level, not the one below *)
    intro req. rewrite enc_field_union; [now rewrite He'|].
    intros ->. specialize (He false). rewrite enc_loop_unset in He; [discriminate|]. intro m. apply enc_unset.
  Qed.
End Level.

Lemma parsed_same (p : option str) s : match p with Some s' => str_eqb s' s | None => false end = true -> p = Some s.
Proof. destruct p as [s'|]; [|discriminate]. intro H. apply str_eqb_eq in H. now subst. Qed.

Theorem rt_strong orc T : table_ok T = true ->
  forall f g k j, (f <= g)%nat -> k_ok k = true -> wf_json j = true -> valid orc T f k j = true -> rt_ok orc T f g k j.
Proof.
  intro HT. induction f as [|f IHf]; intros g k j Hg Hk Hw Hv; [discriminate Hv|].
  destruct g as [|g]; [lia|]. assert (Hg': (f <= g)%nat) by lia.
  destruct k.
  (* KAny, KNone, KBool, KInt, KFloat, KStr: data passed through *)
  1-6: apply (rt_ok_intro (PJ j)); [reflexivity|reflexivity| |reflexivity]; destruct j; try discriminate Hv; reflexivity.
  (* KDate, KDateTime, KUuid: a valid string is one its parser returns unchanged *)
  1-3: cbn [valid valid_step] in Hv; destruct j; try discriminate Hv; apply parsed_same in Hv;
       eapply rt_ok_intro; [reflexivity|rewrite ?dec_S_date, ?dec_S_datetime, ?dec_S_uuid, Hv; reflexivity|reflexivity|reflexivity].
  - discriminate Hk.
  - simpl in Hv.
    assert (Hp: py_scalar_eqb j c = true) by (destruct c; try discriminate Hk; destruct j; try discriminate Hv; exact Hv).
    apply (rt_ok_intro (PJ j)); [reflexivity| |exact Hp|reflexivity].
    now rewrite dec_S_const, Hp.
  - simpl in Hv, Hk. destruct (find_valid vt vals j Hk Hv) as [Hf _].
    apply (rt_ok_intro (PEnum cls j)); [reflexivity| | |reflexivity].
    + now rewrite dec_S_enum, Hf.
    + cbn [wt wt_step]. now rewrite N.eqb_refl, Hv.
  - simpl in Hv, Hk. destruct (find_valid vt vals j Hk Hv) as [_ He].
    apply (rt_ok_intro (PJ j)); [reflexivity| |exact He|reflexivity].
    now rewrite dec_S_litenum, He.
  - apply (klist_rt orc T f IHf); auto.
  - apply (kunion_rt orc T f IHf); auto.
  - apply (kmodel_rt orc T f HT IHf); auto.
Qed.

Theorem roundtrip : forall orc T f k j,
  table_ok T = true -> k_ok k = true -> wf_json j = true ->
  valid orc T f k j = true ->
  exists v, dec orc T f k j = Some v /\ enc T f k v = Some j.
Proof.
  intros orc T f k j HT Hk Hw Hv.
  destruct (rt_strong orc T HT f f k j (le_n f) Hk Hw Hv) as (v & Hd & _ & He & _). eauto.
Qed.

(* decoding the re-encoded value yields the same object (j' is j) *)
Corollary decode_reencoded : forall orc T f k j,
  table_ok T = true -> k_ok k = true -> wf_json j = true -> valid orc T f k j = true ->
  exists v j', dec orc T f k j = Some v /\ enc T f k v = Some j' /\ dec orc T f k j' = Some v.
Proof.
  intros orc T f k j HT Hk Hw Hv. destruct (roundtrip orc T f k j HT Hk Hw Hv) as (v & Hd & He).
  exists v, j. auto.
Qed.

(* undeclared properties survive when the schema permits additional properties (roundtrip alone: m' is m) *)
Corollary additional_preserved : forall orc T f c cd m key x,
  table_ok T = true -> get_class T c = Some cd -> c_addl cd <> None -> wf_json (JObj m) = true ->
  valid orc T f (KModel c) (JObj m) = true ->
  m_get key m = Some x -> existsb (str_eqb key) (map fst (c_props cd)) = false ->
  exists v m', dec orc T f (KModel c) (JObj m) = Some v /\ enc T f (KModel c) v = Some (JObj m') /\ m_get key m' = Some x.
Proof.
  intros orc T f c cd m key x HT _ _ Hw Hv Hg _.
  destruct (roundtrip orc T f (KModel c) (JObj m) HT eq_refl Hw Hv) as (v & Hd & He).
  exists v, m. auto.
Qed.

(* the encoder only ever writes declared wire names or additional keys *)
Theorem wire_names_exact : forall (orc : oracles) T f c fs ad m key x,
  enc T f (KModel c) (PObj c fs ad) = Some (JObj m) -> m_get key m = Some x ->
  (exists cd, get_class T c = Some cd /\ existsb (str_eqb key) (map fst (c_props cd)) = true) \/ existsb (str_eqb key) (map fst ad) = true.
Proof.
  intros _ T f c fs ad m key x He Hg. destruct f as [|f]; [discriminate He|].
  rewrite enc_S_model, enc_obj_eq in He.
  destruct (get_class T c) as [cd|] eqn:Ec; [|discriminate He].
  destruct (enc_props (enc T f) (c_props cd) fs) as [kvs|] eqn:Ep; [|discriminate He].
  destruct (enc_addl (enc T f) cd ad) as [b0|] eqn:Eb; [|discriminate He].
  injection He as <-. apply put_all_get_inv in Hg as [Hin|Hg].
  - left. exists cd. split; auto. apply mem_str_In. eapply enc_props_names; eauto.
  - apply put_all_get_inv in Hg as [Hin|Hg]; [|discriminate Hg]. right. apply mem_str_In.
    unfold enc_addl in Eb. destruct (c_addl cd) as [ak|].
    + apply map_opt_snd_keys in Eb. now rewrite <- Eb.
    + injection Eb as <-. destruct Hin.
Qed.

(* an absent optional property reads back as UNSET, whatever the kind *)
Theorem optional_absent_unset : forall d k, dec_field d k false None = Some PUnset.
Proof. reflexivity. Qed.
(* a required property is always emitted *)
Theorem required_always_emitted : forall e k v o, enc_field e k true v = Some o -> o <> None.
Proof.
  intros e k v o H Ho. subst o.
  assert (Hom: forall x : option json, option_map Some x <> Some None) by (intros [y|]; discriminate).
  assert (Hv: v = PUnset \/ v <> PUnset) by (destruct v; [now left|right; discriminate..]).
  destruct Hv as [->|Hv].
  - (* UNSET: an exception, or the union loop's result *)
    unfold enc_field in H. destruct (has_transform k); [destruct k|]; try discriminate H. exact (Hom _ H).
  - rewrite enc_field_set in H by exact Hv. destruct (has_transform k); [destruct k|]; exact (Hom _ H).
Qed.
(* a required property that is absent is an error, not a default *)
Theorem required_absent_error : forall d k, dec_field d k true None = None.
Proof. reflexivity. Qed.
(* null <-> None for every union with a null member, in both directions *)
Theorem null_decodes_to_none : forall orc T f ms, existsb is_knone ms = true ->
  dec orc T (S f) (KUnion ms) JNull = Some (PJ JNull).
Proof. intros orc T f ms H. rewrite dec_S_union. unfold dec_union. now rewrite H. Qed.
Theorem none_encodes_to_null : forall (orc : oracles) T f ms, existsb is_knone ms = true ->
  enc T (S f) (KUnion ms) (PJ JNull) = Some JNull.
Proof.
  intros _ T f ms H. rewrite enc_S_union. now apply enc_loop_null.
Qed.
(* a kind without a null member does not accept null (spec side; pred f: the members' fuel) *)
Theorem null_invalid_when_not_nullable : forall orc T f k,
  k_ok k = true -> valid orc T f k JNull = true ->
  match k with KAny | KNone => True | KConst c => c = JNull | KUnion ms => exists m, In m ms /\ valid orc T (pred f) m JNull = true | _ => False end.
Proof.
  intros orc T f k Hk Hv. destruct f as [|f]; [discriminate Hv|].
  destruct k; cbn [valid valid_step is_str] in Hv; try exact I; try discriminate Hv.
  - destruct c; try discriminate Hv. reflexivity.
  - simpl in Hk. apply (json_mem_typed vt) in Hv as [_ Ht]; auto. destruct vt; discriminate Ht.
  - simpl in Hk. apply (json_mem_typed vt) in Hv as [_ Ht]; auto. destruct vt; discriminate Ht.
  - apply existsb_exists in Hv as (m & Hin & Hm). exists m. auto.
  - destruct (get_class T cls); discriminate Hv.
Qed.

From Coq Require Import String Ascii.
Import Coq.Lists.List.   (* keep [length] = List.length *)
Local Definition s2l (s : string) : str := List.map N_of_ascii (list_ascii_of_string s).
Definition w_dt : str := Eval vm_compute in s2l "2020-01-01T00:00:00".
Definition w_date : str := Eval vm_compute in s2l "2020-01-01".
Definition w_hello : str := Eval vm_compute in s2l "hello".
Definition w_a : str := Eval vm_compute in s2l "a".
Definition w_x : str := Eval vm_compute in s2l "x".
(* a date parser that truncates one date-time text to its date, rejects one text, and accepts everything else verbatim *)
Definition w_orc : oracles :=
  {| parse_date := fun s => if str_eqb s w_dt then Some w_date else if str_eqb s w_hello then None else Some s;
     parse_datetime := fun s => Some s;
     parse_uuid := fun s => Some s |}.

(* anyOf[date, date-time]: a valid canonical date-time is decoded by the date member and re-encoded as a date *)
Theorem union_date_overlap_refuted : exists orc T f k j,
  table_ok T = true /\ wf_json j = true /\ valid orc T f k j = true /\ k_ok k = false /\
  exists v j', dec orc T f k j = Some v /\ enc T f k v = Some j' /\ j' <> j.
Proof.
  exists w_orc, [], 3%nat, (KUnion [KDate; KDateTime]), (JStr w_dt).
  repeat (split; [vm_compute; reflexivity|]).
  exists (PDate w_date), (JStr w_date). repeat (split; [vm_compute; reflexivity|]). discriminate.
Qed.
(* anyOf[closed model B, model C]: a valid C instance is decoded as B (its keys dropped) and re-encoded as an empty object *)
Definition w_T2 : ctable :=
  [ {| c_props := []; c_addl := None |};
    {| c_props := [(w_a, (true, KInt))]; c_addl := None |} ].
Theorem union_closed_model_first_refuted : exists orc T f k j,
  table_ok T = true /\ wf_json j = true /\ valid orc T f k j = true /\ k_ok k = false /\
  exists v j', dec orc T f k j = Some v /\ enc T f k v = Some j' /\ j' <> j.
Proof.
  exists w_orc, w_T2, 3%nat, (KUnion [KModel 0; KModel 1]), (JObj [(w_a, JInt 1)]).
  repeat (split; [vm_compute; reflexivity|]).
  exists (PObj 0 [] []), (JObj []). repeat (split; [vm_compute; reflexivity|]). discriminate.
Qed.
(* anyOf[array of date, array of string]: ["hello"] decodes through the passthrough member but the encoder takes the first list branch and raises *)
Theorem union_encoder_dispatch_refuted : exists orc T f k j v,
  table_ok T = true /\ wf_json j = true /\ valid orc T f k j = true /\ k_ok k = false /\
  dec orc T f k j = Some v /\ enc T f k v = None.
Proof.
  exists w_orc, [], 3%nat, (KUnion [KList KDate; KList KStr]), (JArr [JStr w_hello]), (PJ (JArr [JStr w_hello])).
  repeat (split; [vm_compute; reflexivity|]). vm_compute; reflexivity.
Qed.
(* anyOf[const "x", integer]: 5 raises in the unguarded const branch instead of reaching the integer member *)
Theorem union_const_unguarded_refuted : exists orc T f k j,
  table_ok T = true /\ wf_json j = true /\ valid orc T f k j = true /\ k_ok k = false /\ dec orc T f k j = None.
Proof.
  exists w_orc, [], 3%nat, (KUnion [KConst (JStr w_x); KInt]), (JInt 5).
  repeat (split; [vm_compute; reflexivity|]). vm_compute; reflexivity.
Qed.

(* non-vacuity: a class table with a nested model, a nullable date, a list of models, typed additional properties, and an instance
   that satisfies every hypothesis of roundtrip *)
Definition w_id : str := Eval vm_compute in s2l "id".
Definition w_child : str := Eval vm_compute in s2l "child".
Definition w_extra : str := Eval vm_compute in s2l "extra".
Definition w_items : str := Eval vm_compute in s2l "items".
Definition w_when : str := Eval vm_compute in s2l "when".
Definition w_T3 : ctable :=
  [ {| c_props := [(w_id, (true, KInt))]; c_addl := None |};
    {| c_props := [(w_child, (true, KModel 0)); (w_when, (false, KUnion [KDate; KNone])); (w_items, (false, KList (KModel 0)))];
       c_addl := Some KInt |} ].
Definition w_j3 : json :=
  JObj [ (w_child, JObj [(w_id, JInt 1)]); (w_extra, JInt 7); (w_items, JArr [JObj [(w_id, JInt 2)]; JObj [(w_id, JInt 3)]]);
         (w_when, JNull) ].
Example roundtrip_nonvacuous : exists orc T f k j,
  table_ok T = true /\ k_ok k = true /\ wf_json j = true /\ valid orc T f k j = true /\
  (exists m, j = JObj m /\ 3 <= length m)%nat.
Proof.
  exists w_orc, w_T3, 5%nat, (KModel 1), w_j3.
  repeat (split; [vm_compute; reflexivity|]). eexists. split; [reflexivity|]. simpl. lia.
Qed.
Example roundtrip_nonvacuous_run :
  exists v, dec w_orc w_T3 5 (KModel 1) w_j3 = Some v /\ enc w_T3 5 (KModel 1) v = Some w_j3.
Proof. apply roundtrip; vm_compute; reflexivity. Qed.

Print Assumptions roundtrip.
Print Assumptions decode_reencoded.
Print Assumptions additional_preserved.
Print Assumptions wire_names_exact.
Print Assumptions optional_absent_unset.
Print Assumptions unset_not_encoded.
Print Assumptions required_always_emitted.
Print Assumptions required_absent_error.
Print Assumptions null_decodes_to_none.
Print Assumptions none_encodes_to_null.
Print Assumptions null_invalid_when_not_nullable.
Print Assumptions union_date_overlap_refuted.
Print Assumptions union_closed_model_first_refuted.
Print Assumptions union_encoder_dispatch_refuted.
Print Assumptions union_const_unguarded_refuted.
Print Assumptions roundtrip_nonvacuous.
Print Assumptions roundtrip_nonvacuous_run.
