(* ValuesThm.v — C13: what each convert_value accepts and emits, kind by kind; C14: values_from_list as a sequence of
   stores (go_app). *)
From Coq Require Import NArith ZArith List Bool Lia.
Import ListNotations.
Require Import OPC.gen.GenTables OPC.Uni OPC.Names OPC.NamesThm OPC.PyLit OPC.PyLitThm OPC.Values OPC.PyEval.
Open Scope N_scope.

#[local] Opaque printable upper lower snake_case c_isalpha.

Lemma is_digit_dig n : is_digit (48 + n mod 10) = true.
Proof.
  assert (H : n mod 10 < 10) by (apply N.mod_lt; discriminate). set (m := n mod 10) in *. clearbody m.
  unfold is_digit. apply andb_true_intro. split; apply N.leb_le; lia.
Qed.

Lemma dig_sub n : 48 + n mod 10 - 48 = n mod 10.
Proof. set (m := n mod 10). clearbody m. lia. Qed.

Lemma parse_dec_cons c s a :
  parse_dec (c :: s) a = if is_digit c then parse_dec s (a * 10 + (c - 48)) else None.
Proof. reflexivity. Qed.

Lemma dec_pos_fuel_S f n acc :
  dec_pos_fuel (S f) n acc =
  if n / 10 =? 0 then (48 + n mod 10) :: acc else dec_pos_fuel f (n / 10) ((48 + n mod 10) :: acc).
Proof. reflexivity. Qed.

Lemma parse_dec_last n acc :
  parse_dec ((48 + n mod 10) :: acc) (n / 10) = parse_dec acc n.
Proof.
  rewrite parse_dec_cons, is_digit_dig, dig_sub. f_equal. pose proof (N.div_mod n 10) as H. lia.
Qed.

(* P n acc r: printing n in front of acc gives r; the fuel N.size n suffices since every round divides by ten *)
Lemma dec_N_ind (P : N -> str -> str -> Prop) :
  (forall n acc, n / 10 = 0 -> P n acc ((48 + n mod 10) :: acc)) ->
  (forall n acc r, n / 10 <> 0 -> P (n / 10) ((48 + n mod 10) :: acc) r -> P n acc r) ->
  forall n, P n [] (dec_N n).
Proof.
  intros Base Step.
  assert (G : forall f n acc, n < 2 * 2 ^ N.of_nat f -> P n acc (dec_pos_fuel (S f) n acc)).
  { induction f as [|f IH]; intros n acc Hn; rewrite dec_pos_fuel_S; destruct (N.eqb_spec (n / 10) 0) as [E|NE].
    - apply Base, E.
    - destruct NE. apply N.div_small. change (2 * 2 ^ N.of_nat 0) with 2 in Hn. lia.
    - apply Base, E.
    - apply Step; [exact NE|]. apply IH. rewrite Nat2N.inj_succ, N.pow_succ_r' in Hn.
      apply N.div_lt_upper_bound; [discriminate | lia]. }
  intros n. apply G. rewrite N2Nat.id. pose proof (N.size_gt n) as H. lia.
Qed.

Lemma parse_dec_dec_N n : parse_dec (dec_N n) 0 = Some n.
Proof.
  refine (dec_N_ind (fun n acc r => parse_dec r 0 = parse_dec acc n) _ _ n).
  - intros m acc E. rewrite <- E at 1. apply parse_dec_last.
  - intros m acc r _ IH. rewrite IH. apply parse_dec_last.
Qed.

Lemma dec_N_head n : n <> 0 -> exists c r, dec_N n = c :: r /\ 49 <= c <= 57.
Proof.
  refine (dec_N_ind (fun n acc r => n <> 0 -> exists c t, r = c :: t /\ 49 <= c <= 57) _ _ n).
  - intros m acc E Hm. exists (48 + m mod 10), acc. split; [reflexivity|].
    apply N.div_small_iff in E; [|discriminate]. rewrite (N.mod_small m 10 E). lia.
  - intros m acc r NE IH _. apply IH, NE.
Qed.

Lemma dec_N_digits n : forallb is_digit (dec_N n) = true.
Proof.
  refine (dec_N_ind (fun n acc r => forallb is_digit acc = true -> forallb is_digit r = true) _ _ n eq_refl).
  - intros m acc _ H. cbn [forallb]. rewrite is_digit_dig. exact H.
  - intros m acc r _ IH H. apply IH. cbn [forallb]. rewrite is_digit_dig. exact H.
Qed.

Lemma parse_nat_lit_ne48 c r : c <> 48 -> parse_nat_lit (c :: r) = parse_dec (c :: r) 0.
Proof.
  intros H. unfold parse_nat_lit.
  destruct c as [|p]; [reflexivity|].
  do 6 (try (destruct p as [p|p|]; try reflexivity)).
  all: try (exfalso; apply H; reflexivity).
Qed.

Lemma parse_int_ne45 c r : c <> 45 ->
  parse_int (c :: r) = match parse_nat_lit (c :: r) with Some n => Some (Z.of_N n) | None => None end.
Proof.
  intros H. unfold parse_int.
  destruct c as [|p]; [reflexivity|].
  do 6 (try (destruct p as [p|p|]; try reflexivity)).
  all: try (exfalso; apply H; reflexivity).
Qed.

Lemma parse_int_neg r :
  parse_int (45 :: r) = match parse_nat_lit r with Some n => Some (- Z.of_N n)%Z | None => None end.
Proof. reflexivity. Qed.

Lemma parse_nat_lit_dec_N p : parse_nat_lit (dec_N (Npos p)) = Some (Npos p).
Proof.
  destruct (dec_N_head (Npos p)) as (c & r & E & Hc); [discriminate|].
  pose proof (parse_dec_dec_N (Npos p)) as P. rewrite E in P |- *.
  rewrite parse_nat_lit_ne48; [exact P | lia].
Qed.

(* parsing reads back what printing wrote; hence printing is injective *)
Theorem parse_int_dec_Z : forall z, parse_int (dec_Z z) = Some z.
Proof.
  intros [|p|p]; unfold dec_Z.
  - reflexivity.
  - pose proof (parse_nat_lit_dec_N p) as P.
    destruct (dec_N_head (Npos p)) as (c & r & E & Hc); [discriminate|].
    rewrite E in P |- *. rewrite parse_int_ne45; [|lia]. rewrite P. reflexivity.
  - rewrite parse_int_neg, parse_nat_lit_dec_N. reflexivity.
Qed.

Theorem dec_Z_inj : forall a b, dec_Z a = dec_Z b -> a = b.
Proof.
  intros a b H. pose proof (parse_int_dec_Z a) as Ha. rewrite H, parse_int_dec_Z in Ha. congruence.
Qed.

Lemma dec_N_inj a b : dec_N a = dec_N b -> a = b.
Proof.
  intros H. pose proof (parse_dec_dec_N a) as Ha. rewrite H, parse_dec_dec_N in Ha. congruence.
Qed.

Lemma dec_Z_head z : exists c r, dec_Z z = c :: r /\ (c = 45 \/ 48 <= c <= 57).
Proof.
  destruct z as [|p|p]; unfold dec_Z.
  - exists 48, []. split; [reflexivity | lia].
  - destruct (dec_N_head (Npos p)) as (c & r & E & Hc); [discriminate|].
    exists c, r. split; [exact E | lia].
  - exists 45, (dec_N (Npos p)). split; [reflexivity | lia].
Qed.

Theorem int_code_evals : forall z, eval_code (dec_Z z) = Some (PVInt z).
Proof.
  intros z. unfold eval_code. rewrite parse_int_dec_Z.
  (* it starts with a minus sign or a digit, the keywords with a letter *)
  destruct (dec_Z_head z) as (c & r & E & Hc). rewrite E. unfold s_True, s_False, s_None. cbn [str_eqb].
  rewrite !(proj2 (N.eqb_neq c _)) by lia. reflexivity.
Qed.

Lemma int_of_float_spec v f :
  int_of_float v f =
  if f_finite f then match f_int f with Some z => Ok (Some {| code := dec_Z z; raw := v |}) | None => Err end else Crash.
Proof. unfold int_of_float. destruct (f_finite f); reflexivity. Qed.

Theorem conv_int_sound : forall o v x,
  conv_int o v = Ok (Some x) -> exists z, int_meaning o v = Some z /\ eval_code (code x) = Some (PVInt z) /\ raw x = v.
Proof.
  intros o v x H.
  assert (IOF : forall f, int_of_float v f = Ok (Some x) ->
            exists z, (if f_finite f then f_int f else None) = Some z /\ eval_code (code x) = Some (PVInt z) /\ raw x = v).
  { intros f Hf. rewrite int_of_float_spec in Hf. destruct (f_finite f); [|discriminate].
    destruct (f_int f) as [z|]; [|discriminate]. injection Hf as <-. exists z. cbn [code raw]. auto using int_code_evals. }
  destruct v as [|b|z|f|s|s]; cbn [conv_int int_meaning] in *; try discriminate.
  - injection H as <-. exists z. cbn [code raw]. auto using int_code_evals.
  - apply IOF, H.
  - destruct (parse_float o s) as [f|]; [apply IOF, H | discriminate].
Qed.

Theorem conv_int_complete : forall o v,
  v <> JNull -> int_meaning o v = None -> conv_int o v = Err \/ conv_int o v = Crash.
Proof.
  intros o v Hv H.
  assert (IOF : forall f, (if f_finite f then f_int f else None) = None ->
            int_of_float v f = Err \/ int_of_float v f = Crash).
  { intros f Hf. rewrite int_of_float_spec. destruct (f_finite f); [rewrite Hf|]; auto. }
  destruct v as [|b|z|f|s|s]; cbn [conv_int int_meaning] in *; auto; try congruence.
  destruct (parse_float o s) as [f|]; auto.
Qed.

Definition dummy_oracles : oracles :=
  {| parse_float := fun _ => Some {| f_tok := [105;110;102]; f_int := None; f_finite := false |};
     float_of_int := fun _ => None;
     isoparse_ok := fun _ => false;
     uuid_ok := fun _ => false |}.

Theorem conv_int_crash_refuted : exists o v, conv_int o v = Crash.
Proof.
  exists dummy_oracles, (JFloat {| f_tok := [105;110;102]; f_int := None; f_finite := false |}).
  reflexivity.
Qed.

Theorem conv_bool_sound : forall v x,
  conv_bool v = Ok (Some x) -> exists b, bool_meaning v = Some b /\ eval_code (code x) = Some (PVBool b).
Proof.
  intros v x H. destruct v as [|b|z|f|s|s]; cbn [conv_bool bool_meaning] in *; try discriminate.
  - injection H as <-. exists b. cbn [code]. split; [reflexivity|].
    destruct b; reflexivity.
  - destruct (str_eqb (lower s) s_true).
    + injection H as <-. exists true. split; reflexivity.
    + destruct (str_eqb (lower s) s_false); [|discriminate].
      injection H as <-. exists false. split; reflexivity.
Qed.

Theorem conv_bool_complete : forall v, v <> JNull -> bool_meaning v = None -> conv_bool v = Err.
Proof.
  intros v Hv H. destruct v as [|b|z|f|s|s]; cbn [conv_bool bool_meaning] in *;
    try congruence; try reflexivity.
  destruct (str_eqb (lower s) s_true); [discriminate|].
  destruct (str_eqb (lower s) s_false); [discriminate|]. reflexivity.
Qed.

Theorem conv_string_sound : forall s x,
  repr_printable s = true -> existsb (N.eqb DQ) s = false ->
  conv_string (JStr s) = Ok (Some x) -> lex_string (code x) = Some (s, []).
Proof.
  intros s x Hp Hq H. cbn [conv_string py_str] in H. injection H as <-. cbn [code].
  rewrite (escape_dq_id s Hq). apply repr_roundtrip_printable. exact Hp.
Qed.

Lemma eval_code_quoted q t v : q = DQ \/ q = SQ -> lex_string (q :: t) = Some (v, []) -> eval_code (q :: t) = Some (PVStr v).
Proof. intros [-> | ->] L; unfold eval_code; rewrite L; reflexivity. Qed.

Theorem conv_string_dq_refuted : exists s x,
  conv_string (JStr s) = Ok (Some x) /\ lex_string (code x) <> Some (s, []).
Proof.
  exists [34], {| code := py_repr (escape_dq [34]); raw := JStr [34] |}.
  split; [reflexivity|]. vm_compute. discriminate.
Qed.

Theorem conv_float_token : forall o v x, conv_float o v = Ok (Some x) ->
  exists f, code x = f_tok f.
Proof.
  intros o v x H. destruct v as [|b|z|f|s|s]; cbn [conv_float] in H; try discriminate.
  - destruct (float_of_int o z) as [f|]; [|discriminate]. injection H as <-. exists f. reflexivity.
  - injection H as <-. exists f. reflexivity.
  - destruct (parse_float o s) as [f|]; [|discriminate]. injection H as <-. exists f. reflexivity.
Qed.

Theorem conv_float_nonfinite_refuted : exists o v x,
  conv_float o v = Ok (Some x) /\ eval_code (code x) = None.
Proof.
  exists dummy_oracles, (JStr [105;110;102]),
    {| code := [105;110;102]; raw := JStr [105;110;102] |}.
  split; [reflexivity | vm_compute; reflexivity].
Qed.

Lemma evalue_eqb_eq a b : evalue_eqb a b = true <-> a = b.
Proof.
  destruct a as [x|x], b as [y|y]; cbn [evalue_eqb]; [rewrite Z.eqb_eq | | | rewrite str_eqb_eq]; split; congruence.
Qed.

Lemma inverse_lookup_In ev : forall ms k, inverse_lookup ev ms = Some k -> In (k, ev) ms.
Proof.
  induction ms as [|[k' v'] ms IH]; intros k H; cbn [inverse_lookup] in H; [discriminate|].
  destruct (inverse_lookup ev ms) as [k2|].
  - injection H as <-. right. apply IH. reflexivity.
  - destruct (evalue_eqb ev v') eqn:E; [|discriminate]. injection H as <-.
    apply evalue_eqb_eq in E as <-. left; reflexivity.
Qed.

(* conv_enum and conv_litenum look at the default only through this *)
Definition as_evalue (vt : vtype) (v : jval) : option evalue :=
  match v, vt with
  | JInt z, VInt => Some (EInt z)
  | JBool b, VInt => Some (EInt (if b then 1 else 0)%Z)
  | JStr s, VStr => Some (EStr s)
  | _, _ => None
  end.

Lemma as_evalue_denotes vt v ev : as_evalue vt v = Some ev ->
  match v, ev with
  | JInt z, EInt z' => z = z'
  | JBool b, EInt z' => z' = (if b then 1 else 0)%Z
  | JStr s, EStr s' => s = s'
  | _, _ => False
  end.
Proof. destruct v, vt; try discriminate; intros [= <-]; reflexivity. Qed.

Lemma conv_enum_some vt cls ms v x : conv_enum vt cls ms v = Ok (Some x) ->
  exists ev k, as_evalue vt v = Some ev /\ inverse_lookup ev ms = Some k /\ code x = cls ++ [46] ++ k.
Proof.
  unfold conv_enum. destruct v, vt; try discriminate; cbn [as_evalue];
    (destruct (inverse_lookup _ ms) as [k|] eqn:E; [|discriminate]); intros [= <-]; eauto.
Qed.

Lemma conv_litenum_some vt vals v x : conv_litenum vt vals v = Ok (Some x) ->
  exists ev, as_evalue vt v = Some ev /\ existsb (evalue_eqb ev) vals = true.
Proof.
  unfold conv_litenum. destruct v, vt; try discriminate; cbn [as_evalue];
    (destruct (existsb _ vals) eqn:E; [|discriminate]); eauto.
Qed.

Theorem conv_enum_sound : forall vt cls ms v x,
  conv_enum vt cls ms v = Ok (Some x) ->
  exists k ev, code x = cls ++ [46] ++ k /\ In (k, ev) ms /\
    match v, ev with
    | JInt z, EInt z' => z = z'
    | JBool b, EInt z' => z' = (if b then 1 else 0)%Z
    | JStr s, EStr s' => s = s'
    | _, _ => False
    end.
Proof.
  intros vt cls ms v x H. apply conv_enum_some in H as (ev & k & Hv & Hk & Hc).
  exists k, ev. split; [exact Hc|]. split; [apply inverse_lookup_In, Hk | apply (as_evalue_denotes vt), Hv].
Qed.

Theorem conv_litenum_sound : forall vt vals v x,
  conv_litenum vt vals v = Ok (Some x) ->
  exists ev, In ev vals /\
    match v, ev with
    | JInt z, EInt z' => z = z'
    | JBool b, EInt z' => z' = (if b then 1 else 0)%Z
    | JStr s, EStr s' => s = s'
    | _, _ => False
    end.
Proof.
  intros vt vals v x H. apply conv_litenum_some in H as (ev & Hv & He).
  apply existsb_exists in He as (ev' & Hin & E). apply evalue_eqb_eq in E as <-.
  exists ev. split; [exact Hin | apply (as_evalue_denotes vt), Hv].
Qed.

Theorem conv_const_sound : forall cv v x,
  conv_const cv v = Ok (Some x) -> exists c, conv_any cv = Ok (Some c) /\ value_eqb x c = true.
Proof.
  intros cv v x H. unfold conv_const in H.
  destruct (conv_any v) as [[x'|]| |]; try discriminate.
  destruct (conv_any cv) as [[c|]| |]; try discriminate.
  destruct (value_eqb x' c) eqn:E; [|discriminate].
  injection H as <-. exists c. auto.
Qed.

(* no converter answers "no default" to a value other than null *)
Lemma conv_any_none v : conv_any v = Ok None -> v = JNull.
Proof. destruct v; try discriminate; reflexivity. Qed.

Lemma conv_string_none v : conv_string v = Ok None -> v = JNull.
Proof. destruct v; try discriminate; reflexivity. Qed.

Lemma conv_file_none v : conv_file v = Ok None -> v = JNull.
Proof. destruct v; try discriminate; reflexivity. Qed.

Lemma conv_none_none v : conv_none v = Ok None -> v = JNull.
Proof.
  destruct v as [| | | |s|]; try discriminate; [reflexivity|]. cbn [conv_none]. destruct (str_eqb s s_None); discriminate.
Qed.

Lemma conv_bool_none v : conv_bool v = Ok None -> v = JNull.
Proof.
  destruct v as [| | | |s|]; try discriminate; [reflexivity|]. cbn [conv_bool].
  destruct (str_eqb (lower s) s_true); [discriminate|]. destruct (str_eqb (lower s) s_false); discriminate.
Qed.

Lemma conv_int_none o v : conv_int o v = Ok None -> v = JNull.
Proof.
  destruct v as [| | |f|s|]; try discriminate; [reflexivity | |]; cbn [conv_int];
    [|destruct (parse_float o s) as [f|]; [|discriminate]];
    rewrite int_of_float_spec; (destruct (f_finite f); [destruct (f_int f)|]); discriminate.
Qed.

Lemma conv_float_none o v : conv_float o v = Ok None -> v = JNull.
Proof.
  destruct v as [| |z| |s|]; try discriminate; [reflexivity | |]; cbn [conv_float];
    [destruct (float_of_int o z) | destruct (parse_float o s)]; discriminate.
Qed.

Lemma conv_date_none o v : conv_date o v = Ok None -> v = JNull.
Proof. destruct v as [| | | |s|]; try discriminate; [reflexivity|]. cbn [conv_date]. destruct (isoparse_ok o s); discriminate. Qed.

Lemma conv_datetime_none o v : conv_datetime o v = Ok None -> v = JNull.
Proof. destruct v as [| | | |s|]; try discriminate; [reflexivity|]. cbn [conv_datetime]. destruct (isoparse_ok o s); discriminate. Qed.

Lemma conv_uuid_none o v : conv_uuid o v = Ok None -> v = JNull.
Proof. destruct v as [| | | |s|]; try discriminate; [reflexivity|]. cbn [conv_uuid]. destruct (uuid_ok o s); discriminate. Qed.

Lemma conv_const_none cv v : conv_const cv v = Ok None -> v = JNull.
Proof.
  unfold conv_const. destruct (conv_any v) as [[x|]| |] eqn:E; try discriminate; [|intros _; apply conv_any_none, E].
  destruct (conv_any cv) as [[c|]| |]; try discriminate. destruct (value_eqb x c); discriminate.
Qed.

Lemma conv_enum_none vt cls ms v : conv_enum vt cls ms v = Ok None -> v = JNull.
Proof.
  unfold conv_enum. destruct v, vt; try discriminate; try reflexivity; destruct (inverse_lookup _ ms); discriminate.
Qed.

Lemma conv_litenum_none vt vals v : conv_litenum vt vals v = Ok None -> v = JNull.
Proof.
  unfold conv_litenum. destruct v, vt; try discriminate; try reflexivity; destruct (existsb _ vals); discriminate.
Qed.

Definition union_go (o : oracles) (v : jval) :=
  fix go (ms : list ckind) (last : result) {struct ms} : result :=
    match ms with
    | [] => last
    | m :: ms' => let r := convert_value o m v in
                  if is_err r then go ms' r else r
    end.

Lemma convert_union_nonnull o ms v : v <> JNull -> convert_value o (CUnion ms) v = union_go o v ms Err.
Proof. intros Hv. destruct v; [destruct (Hv eq_refl) | reflexivity ..]. Qed.

Lemma union_go_cons o v m ms last :
  union_go o v (m :: ms) last =
  if is_err (convert_value o m v) then union_go o v ms (convert_value o m v) else convert_value o m v.
Proof. reflexivity. Qed.

Lemma is_err_true r : is_err r = true -> r = Err.
Proof. destruct r; try discriminate. reflexivity. Qed.

Theorem conv_union_first : forall o ms v r,
  v <> JNull -> convert_value o (CUnion ms) v = r -> r <> Err ->
  exists pre m post, ms = pre ++ m :: post /\ convert_value o m v = r /\
    forall m', In m' pre -> convert_value o m' v = Err.
Proof.
  intros o ms v r Hv H Hr. rewrite convert_union_nonnull in H by exact Hv.
  revert H. induction ms as [|m ms IH]; intros H; [destruct (Hr (eq_sym H))|].
  rewrite union_go_cons in H. destruct (is_err (convert_value o m v)) eqn:E.
  - apply is_err_true in E. rewrite E in H. destruct (IH H) as (pre & m0 & post & -> & Hm & Hpre).
    exists (m :: pre), m0, post. split; [reflexivity|]. split; [exact Hm|]. intros m' [<-|Hin]; auto.
  - exists [], m, ms. split; [reflexivity|]. split; [exact H | intros m' []].
Qed.

Definition keys (m : list (str * evalue)) : list str := map fst m.

Lemma keys_cons k v m : keys ((k, v) :: m) = k :: keys m.
Proof. reflexivity. Qed.

Lemma assoc_mem_cons k k' v' m : assoc_mem k ((k', v') :: m) = str_eqb k k' || assoc_mem k m.
Proof. reflexivity. Qed.

Lemma assoc_set_cons k v k' v' m :
  assoc_set k v ((k', v') :: m) = if str_eqb k k' then (k', v) :: m else (k', v') :: assoc_set k v m.
Proof. reflexivity. Qed.

Lemma assoc_mem_In k m : assoc_mem k m = true <-> In k (keys m).
Proof.
  unfold assoc_mem, keys. rewrite existsb_exists, in_map_iff. split.
  - intros (p & Hp & E). apply str_eqb_eq in E. eauto.
  - intros (p & <- & Hp). exists p. split; [exact Hp | apply str_eqb_refl].
Qed.

Lemma assoc_mem_false k m : assoc_mem k m = false -> ~ In k (keys m).
Proof. rewrite <- assoc_mem_In. intros ->. discriminate. Qed.

Lemma assoc_set_keys k v : forall m,
  keys (assoc_set k v m) = if assoc_mem k m then keys m else keys m ++ [k].
Proof.
  induction m as [|[k' v'] m IH]; [reflexivity|].
  rewrite assoc_set_cons, assoc_mem_cons.
  destruct (str_eqb k k'); cbn [orb]; [reflexivity|].
  rewrite !keys_cons, IH. destruct (assoc_mem k m); reflexivity.
Qed.

Lemma assoc_set_nodup k v m : NoDup (keys m) -> NoDup (keys (assoc_set k v m)).
Proof.
  intros H. rewrite assoc_set_keys. destruct (assoc_mem k m) eqn:E; [exact H|].
  apply NoDup_snoc; [exact H | apply assoc_mem_false; exact E].
Qed.

Lemma assoc_set_In k v : forall m p, In p (assoc_set k v m) -> In p m \/ p = (k, v).
Proof.
  induction m as [|[k0 v0] m IH]; intros p H.
  - destruct H as [<-|[]]. right; reflexivity.
  - rewrite assoc_set_cons in H. destruct (str_eqb_spec k k0) as [<-|_].
    + destruct H as [<-|H]; [right; reflexivity | left; right; exact H].
    + destruct H as [<-|H]; [left; left; reflexivity|].
      destruct (IH _ H) as [H'|H']; [left; right; exact H' | right; exact H'].
Qed.

Lemma assoc_set_new k v : forall m, In (k, v) (assoc_set k v m).
Proof.
  induction m as [|[k0 v0] m IH]; [left; reflexivity|].
  rewrite assoc_set_cons. destruct (str_eqb_spec k k0) as [<-|_]; [left; reflexivity | right; exact IH].
Qed.

Lemma assoc_set_other k v : forall m k' v', In (k', v') m -> k' <> k -> In (k', v') (assoc_set k v m).
Proof.
  induction m as [|[k0 v0] m IH]; intros k' v' H Hne; [destruct H|].
  rewrite assoc_set_cons. destruct (str_eqb_spec k k0) as [<-|_].
  - destruct H as [[= <- <-]|H]; [congruence | right; exact H].
  - destruct H as [H|H]; [left; exact H | right; apply IH; assumption].
Qed.

Definition functional {A B : Type} (l : list (A * B)) : Prop :=
  forall k v v', In (k, v) l -> In (k, v') l -> v = v'.

Lemma nodup_fst_functional {A B : Type} (l : list (A * B)) : NoDup (map fst l) -> functional l.
Proof.
  induction l as [|[k0 v0] l IH]; intros Hn k v v' H1 H2; [destruct H1|].
  cbn [map fst] in Hn. inversion Hn as [|x xs Hnotin Hn']; subst.
  assert (Fresh : forall w, ~ In (k0, w) l) by (intros w Hw; apply Hnotin, (in_map fst _ _ Hw)).
  destruct H1 as [H1|H1], H2 as [H2|H2].
  - congruence.
  - injection H1 as <- <-. destruct (Fresh _ H2).
  - injection H2 as <- <-. destruct (Fresh _ H1).
  - apply (IH Hn' k); assumption.
Qed.

Definition set_entry (out : list (str * evalue)) (p : str * evalue) := assoc_set (fst p) (snd p) out.

Lemma set_all_keys_nodup : forall l out, NoDup (keys out) -> NoDup (keys (fold_left set_entry l out)).
Proof.
  induction l as [|p l IH]; intros out H; [exact H|]. apply IH, assoc_set_nodup, H.
Qed.

Lemma set_all_keys : forall l out k, In k (keys out) \/ In k (keys l) -> In k (keys (fold_left set_entry l out)).
Proof.
  induction l as [|[k0 v0] l IH]; intros out k H; cbn [fold_left].
  - destruct H as [H|[]]. exact H.
  - apply IH. unfold set_entry. cbn [fst snd]. rewrite assoc_set_keys.
    destruct H as [H|[<-|H]].
    + left. destruct (assoc_mem k0 out); [exact H | apply in_or_app; left; exact H].
    + left. destruct (assoc_mem k0 out) eqn:E; [apply assoc_mem_In, E | apply in_or_app; right; left; reflexivity].
    + right. exact H.
Qed.

Lemma set_all_sub : forall l out p, In p (fold_left set_entry l out) -> In p out \/ In p l.
Proof.
  induction l as [|[k v] l IH]; intros out p H; [left; exact H|].
  destruct (IH _ _ H) as [Hin|Hin]; [|right; right; exact Hin].
  apply assoc_set_In in Hin as [Hin| ->]; [left; exact Hin | right; left; reflexivity].
Qed.

Lemma set_all_sup : forall l out, functional (out ++ l) -> forall p, In p (out ++ l) -> In p (fold_left set_entry l out).
Proof.
  induction l as [|[k v] l IH]; intros out Hf p Hp; cbn [fold_left].
  - rewrite app_nil_r in Hp. exact Hp.
  - assert (Hsub : forall q, In q (assoc_set k v out ++ l) -> In q (out ++ (k, v) :: l)).
    { intros q Hq. apply in_app_or in Hq as [Hq|Hq].
      - apply assoc_set_In in Hq as [Hq| ->]; apply in_or_app; [left; exact Hq | right; left; reflexivity].
      - apply in_or_app. right. right. exact Hq. }
    apply IH.
    + intros k0 v0 v0' H1 H2. apply (Hf k0); apply Hsub; assumption.
    + destruct p as [k0 v0]. apply in_or_app. apply in_app_or in Hp as [Hp|[[= <- <-]|Hp]].
      * left. destruct (str_eqb_spec k0 k) as [->|NE].
        -- (* the old entry under k already holds v *)
           rewrite (Hf k v0 v); [apply assoc_set_new | apply in_or_app; left; exact Hp | apply in_or_app; right; left; reflexivity].
        -- apply assoc_set_other; assumption.
      * left. apply assoc_set_new.
      * right. exact Hp.
Qed.

Definition esc_ev (e : evalue) : evalue := match e with EInt z => EInt z | EStr s => EStr (escape_dq s) end.

(* the sanitised key of a value at index i, as values_from_list computes it *)
Definition member_key (i : N) (e : evalue) : str :=
  match e with
  | EInt (Zneg p) => s_VALUE_NEGATIVE_ ++ dec_N (Npos p)
  | EInt z => s_VALUE_ ++ dec_Z z
  | EStr s => upper (snake_case (match s with
                                 | c :: _ => if c_isalpha c then upper s else s_VALUE_ ++ dec_N i
                                 | [] => s_VALUE_ ++ dec_N i end))
  end.

Fixpoint member_keys_from (i : N) (vs : list evalue) : list str :=
  match vs with [] => [] | e :: vs' => member_key i e :: member_keys_from (N.succ i) vs' end.

Definition entries (i : N) (vs : list evalue) : list (str * evalue) := combine (member_keys_from i vs) (map esc_ev vs).

Lemma entries_cons i e vs : entries i (e :: vs) = (member_key i e, esc_ev e) :: entries (N.succ i) vs.
Proof. reflexivity. Qed.

Lemma keys_entries : forall vs i, keys (entries i vs) = member_keys_from i vs.
Proof.
  induction vs as [|e vs IH]; intros i; [reflexivity|].
  rewrite entries_cons, keys_cons, IH. reflexivity.
Qed.

Lemma entries_nth : forall vs i j e, nth_error vs j = Some e ->
  In (member_key (i + N.of_nat j) e, esc_ev e) (entries i vs).
Proof.
  induction vs as [|e0 vs IH]; intros i [|j] e Hj; try discriminate Hj; rewrite entries_cons.
  - injection Hj as <-. rewrite N.add_0_r. left. reflexivity.
  - right. rewrite Nat2N.inj_succ, N.add_succ_r, <- N.add_succ_l. apply IH. exact Hj.
Qed.

Lemma entries_In : forall vs i k v, In (k, v) (entries i vs) -> exists j e, In e vs /\ k = member_key j e /\ v = esc_ev e.
Proof.
  induction vs as [|e0 vs IH]; intros i k v H; [destruct H|]. rewrite entries_cons in H. destruct H as [[= <- <-]|H].
  - exists i, e0. auto using in_eq.
  - destruct (IH _ _ _ H) as (j & e & He & Hk & Hv). exists j, e. auto using in_cons.
Qed.

Lemma go_step i e vs out m : values_from_list_go i (e :: vs) out = Some m ->
  values_from_list_go (N.succ i) vs (assoc_set (member_key i e) (esc_ev e) out) = Some m.
Proof.
  destruct e as [z|s]; cbn [values_from_list_go member_key esc_ev]; intros H.
  - destruct z; exact H.
  - destruct (assoc_mem _ out); [discriminate | exact H].
Qed.

Lemma go_app : forall pre i out post m,
  values_from_list_go i (pre ++ post) out = Some m ->
  values_from_list_go (i + N.of_nat (length pre)) post (fold_left set_entry (entries i pre) out) = Some m.
Proof.
  induction pre as [|e pre IH]; intros i out post m H.
  - rewrite N.add_0_r. exact H.
  - apply go_step, IH in H.
    cbn [length]. rewrite Nat2N.inj_succ, N.add_succ_r, <- N.add_succ_l. exact H.
Qed.

Lemma go_fold i vs out m : values_from_list_go i vs out = Some m -> m = fold_left set_entry (entries i vs) out.
Proof.
  intros H. rewrite <- (app_nil_r vs) in H. apply go_app in H. injection H as <-. reflexivity.
Qed.

Theorem values_from_list_keys_nodup : forall vs m, values_from_list vs = Some m -> NoDup (keys m).
Proof.
  intros vs m H. apply go_fold in H as ->. apply set_all_keys_nodup. constructor.
Qed.

(* no invented members: every member value is (the escaped spelling of) a declared value *)
Theorem values_from_list_members_declared : forall vs m k ev,
  values_from_list vs = Some m -> In (k, ev) m -> exists v, In v vs /\ ev = esc_ev v.
Proof.
  intros vs m k ev H Hin. apply go_fold in H as ->.
  apply set_all_sub in Hin as [[]|Hin]. apply entries_In in Hin as (j & e & He & _ & Hv). exists e. auto.
Qed.

(* if the sanitised names are pairwise distinct, every declared value has its member *)
Theorem values_from_list_complete : forall vs m,
  NoDup (member_keys_from 0 vs) -> values_from_list vs = Some m ->
  forall i e, nth_error vs i = Some e -> In (member_key (N.of_nat i) e, esc_ev e) m.
Proof.
  intros vs m Hnd H i e Hi. apply go_fold in H as ->. apply (set_all_sup _ []); cbn [app].
  - apply nodup_fst_functional. change (NoDup (keys (entries 0 vs))). rewrite keys_entries. exact Hnd.
  - apply (entries_nth vs 0 i e Hi).
Qed.

(* without the guard a declared value can vanish silently: the values a b and a-b *)
Theorem enum_silent_merge_refuted : exists vs m e,
  values_from_list vs = Some m /\ In e vs /\ ~ In (esc_ev e) (map snd m).
Proof.
  exists [EStr [97;32;98]; EStr [97;45;98]], [([65;95;66], EStr [97;45;98])], (EStr [97;32;98]).
  split; [vm_compute; reflexivity|]. split; [left; reflexivity|].
  intros [H|[]]. discriminate H.
Qed.

Print Assumptions parse_int_dec_Z.
Print Assumptions dec_Z_inj.
Print Assumptions int_code_evals.
Print Assumptions conv_int_sound.
Print Assumptions conv_int_complete.
Print Assumptions conv_int_crash_refuted.
Print Assumptions conv_bool_sound.
Print Assumptions conv_bool_complete.
Print Assumptions conv_string_sound.
Print Assumptions conv_string_dq_refuted.
Print Assumptions conv_float_token.
Print Assumptions conv_float_nonfinite_refuted.
Print Assumptions conv_enum_sound.
Print Assumptions conv_litenum_sound.
Print Assumptions conv_const_sound.
Print Assumptions conv_union_first.
Print Assumptions values_from_list_keys_nodup.
Print Assumptions values_from_list_members_declared.
Print Assumptions values_from_list_complete.
Print Assumptions enum_silent_merge_refuted.
