(* ValuesThm2.v — C13: the emitted default expression denotes the declared typed value (all scalar kinds), ill-typed defaults
   are rejected; the guard default_class names one known defect class per non-zero code. *)
From Coq Require Import NArith ZArith List Bool Lia.
Import ListNotations.
Require Import OPC.gen.GenTables OPC.Uni OPC.Names OPC.NamesThm OPC.PyLit OPC.PyLitThm OPC.Values OPC.PyEval OPC.ValuesThm.
Open Scope N_scope.

#[local] Opaque printable upper lower snake_case c_isalpha.

Definition dot_e (c : N) : bool := (c =? 46) || (c =? 101) || (c =? 69).

Lemma digit_not_dot_e c : is_digit c = true -> dot_e c = false.
Proof.
  intros H. unfold dot_e.
  destruct (N.eqb_spec c 46) as [->|_]; [discriminate H|]. destruct (N.eqb_spec c 101) as [->|_]; [discriminate H|].
  destruct (N.eqb_spec c 69) as [->|_]; [discriminate H | reflexivity].
Qed.

Lemma parse_dec_no_dot_e : forall s a n, parse_dec s a = Some n -> existsb dot_e s = false.
Proof.
  induction s as [|c s IH]; intros a n H; [reflexivity|].
  rewrite parse_dec_cons in H. cbn [existsb]. destruct (is_digit c) eqn:D; [|discriminate].
  rewrite (digit_not_dot_e c D). apply (IH _ _ H).
Qed.

Lemma parse_nat_lit_no_dot_e s n : parse_nat_lit s = Some n -> existsb dot_e s = false.
Proof.
  destruct s as [|c r]; [discriminate|]. destruct (N.eq_dec c 48) as [->|NE].
  - destruct r as [|c2 r2]; [reflexivity | discriminate].
  - rewrite (parse_nat_lit_ne48 c r NE). apply parse_dec_no_dot_e.
Qed.

Lemma parse_int_no_dot_e t z : parse_int t = Some z -> existsb dot_e t = false.
Proof.
  destruct t as [|c r]; [discriminate|]. destruct (N.eq_dec c 45) as [->|NE].
  - rewrite parse_int_neg. destruct (parse_nat_lit r) as [n|] eqn:E; [|discriminate]. intros _.
    apply (parse_nat_lit_no_dot_e _ _ E).
  - rewrite (parse_int_ne45 c r NE). destruct (parse_nat_lit (c :: r)) as [n|] eqn:E; [|discriminate]. intros _.
    apply (parse_nat_lit_no_dot_e _ _ E).
Qed.

Lemma float_tok_not_int t : is_float_tok t = true -> parse_int t = None.
Proof.
  intros H. destruct (parse_int t) as [z|] eqn:E; [|reflexivity].
  apply parse_int_no_dot_e in E. unfold is_float_tok in H. apply andb_prop in H as [_ H].
  unfold dot_e in E. rewrite E in H. discriminate.
Qed.

Lemma float_tok_not_kw t : is_float_tok t = true ->
  str_eqb t s_True = false /\ str_eqb t s_False = false /\ str_eqb t s_None = false.
Proof.
  intros H.
  assert (X : forall k, is_float_tok k = false -> str_eqb t k = false).
  { intros k Hk. destruct (str_eqb t k) eqn:E; [|reflexivity]. apply str_eqb_eq in E. subst t. congruence. }
  repeat split; apply X; reflexivity.
Qed.

Theorem float_tok_evals : forall t, is_float_tok t = true -> eval_code t = Some (PVFloat t).
Proof.
  intros t H. destruct (float_tok_not_kw t H) as (E1 & E2 & E3).
  unfold eval_code. rewrite E1, E2, E3, (float_tok_not_int t H), H. reflexivity.
Qed.

Definition float_meaning (o : oracles) (v : jval) : option fl :=
  match v with
  | JFloat f => Some f
  | JInt z => float_of_int o z
  | JStr s => parse_float o s
  | _ => None
  end.

Theorem conv_float_sound : forall o v x, conv_float o v = Ok (Some x) ->
  exists f, float_meaning o v = Some f /\ code x = f_tok f /\ raw x = v /\
            (is_float_tok (f_tok f) = true -> eval_code (code x) = Some (PVFloat (f_tok f))).
Proof.
  intros o v x H. destruct v as [|b|z|f|s|s]; cbn [conv_float float_meaning] in *; try discriminate.
  - destruct (float_of_int o z) as [f|]; [|discriminate]. injection H as <-. exists f. auto using float_tok_evals.
  - injection H as <-. exists f. auto using float_tok_evals.
  - destruct (parse_float o s) as [f|]; [|discriminate]. injection H as <-. exists f. auto using float_tok_evals.
Qed.

Theorem conv_float_complete : forall o v, v <> JNull -> float_meaning o v = None ->
  conv_float o v = Err \/ conv_float o v = Crash.
Proof.
  intros o v Hv H. destruct v as [|b|z|f|s|s]; cbn [conv_float float_meaning] in *; try congruence; auto.
  - rewrite H. right; reflexivity.
  - rewrite H. left; reflexivity.
Qed.

Lemma eval_isoparse rest :
  eval_code (s_isoparse_open ++ rest) =
  match lex_string rest with
  | Some (v, [41]) => Some (PVDateTime v)
  | Some (v, r) => if str_eqb r s_date_close then Some (PVDate v) else None
  | None => None
  end.
Proof. reflexivity. Qed.

Lemma eval_uuid rest :
  eval_code (s_uuid_call ++ rest) =
  match lex_string rest with Some (v, [41]) => Some (PVUuid v) | _ => None end.
Proof. reflexivity. Qed.

Definition emit (pv : pyval) : str :=
  match pv with
  | PVNone => s_None
  | PVBool b => if b then s_True else s_False
  | PVInt z => dec_Z z
  | PVFloat t => t
  | PVStr s => py_repr s
  | PVDate s => s_isoparse_open ++ py_repr s ++ s_date_close
  | PVDateTime s => s_isoparse_open ++ py_repr s ++ [41]
  | PVUuid s => s_uuid_call ++ py_repr s ++ [41]
  | PVMember c k => c ++ [46] ++ k
  end.

(* where the evaluator is shown to read emit back: float tokens that are literals, strings the model's lexer covers;
   enum members are not treated here *)
Definition emittable (pv : pyval) : bool :=
  match pv with
  | PVFloat t => is_float_tok t
  | PVStr s | PVDate s | PVDateTime s | PVUuid s => repr_printable s
  | PVMember _ _ => false
  | PVNone | PVBool _ | PVInt _ => true
  end.

Theorem eval_emit : forall pv, emittable pv = true -> eval_code (emit pv) = Some pv.
Proof.
  intros [|b|z|t|s|s|s|s|c k] H; cbn [emit emittable] in *.
  - reflexivity.
  - destruct b; reflexivity.
  - apply int_code_evals.
  - apply float_tok_evals, H.
  - apply eval_code_quoted; [apply repr_quote_cases | apply repr_roundtrip_printable, H].
  - rewrite eval_isoparse, (repr_roundtrip_rest s _ H). reflexivity.
  - rewrite eval_isoparse, (repr_roundtrip_rest s _ H). reflexivity.
  - rewrite eval_uuid, (repr_roundtrip_rest s _ H). reflexivity.
  - discriminate H.
Qed.

Lemma guarded_literal_sound (ok : bool) pv v x :
  (if ok then Ok (Some {| code := emit pv; raw := v |}) else Err) = Ok (Some x) ->
  ok = true /\ raw x = v /\ (emittable pv = true -> eval_code (code x) = Some pv).
Proof.
  destruct ok; [|discriminate]. intros [= <-]. split; [reflexivity|]. split; [reflexivity|]. apply eval_emit.
Qed.

Theorem conv_date_sound : forall o s x, conv_date o (JStr s) = Ok (Some x) ->
  isoparse_ok o s = true /\ raw x = JStr s /\ (repr_printable s = true -> eval_code (code x) = Some (PVDate s)).
Proof. intros o s x. apply (guarded_literal_sound (isoparse_ok o s) (PVDate s)). Qed.

Theorem conv_datetime_sound : forall o s x, conv_datetime o (JStr s) = Ok (Some x) ->
  isoparse_ok o s = true /\ raw x = JStr s /\ (repr_printable s = true -> eval_code (code x) = Some (PVDateTime s)).
Proof. intros o s x. apply (guarded_literal_sound (isoparse_ok o s) (PVDateTime s)). Qed.

Theorem conv_uuid_sound : forall o s x, conv_uuid o (JStr s) = Ok (Some x) ->
  uuid_ok o s = true /\ raw x = JStr s /\ (repr_printable s = true -> eval_code (code x) = Some (PVUuid s)).
Proof. intros o s x. apply (guarded_literal_sound (uuid_ok o s) (PVUuid s)). Qed.

Definition typed_value (o : oracles) (k : ckind) (v : jval) : option pyval :=
  match k, v with
  | CInt, JInt z => Some (PVInt z)
  | CInt, JFloat f => if f_finite f then match f_int f with Some z => Some (PVInt z) | None => None end else None
  | CBool, JBool b => Some (PVBool b)
  | CFloat, JFloat f => Some (PVFloat (f_tok f))
  | CFloat, JInt z => match float_of_int o z with Some f => Some (PVFloat (f_tok f)) | None => None end
  | CStr, JStr s => Some (PVStr s)
  | CDate, JStr s => if isoparse_ok o s then Some (PVDate s) else None
  | CDateTime, JStr s => if isoparse_ok o s then Some (PVDateTime s) else None
  | CUuid, JStr s => if uuid_ok o s then Some (PVUuid s) else None
  | _, _ => None
  end.

Definition has_dq (s : str) : bool := existsb (N.eqb DQ) s.

(* 0 = inside the proved domain; every other code is one named class (see known_findings.json):
   1 float_token, 2 string_lenient, 3 int_lenient, 4 bool_lenient, 5 default_dq, 6 float_lenient, 7 default_nonfinite_crash,
   8 (not used), 9 not repr-printable (restriction of the MODEL's lexer, not a defect), 10 none_lenient,
   11 kind not covered by this theorem (enum, const, union, any, list: see their own theorems) *)
Definition default_class (o : oracles) (k : ckind) (v : jval) : N :=
  match k with
  | CInt =>
      match v with
      | JStr s => match parse_float o s with
                  | None => 0
                  | Some f => if f_finite f then match f_int f with Some _ => 3 | None => 0 end else 7
                  end
      | JFloat f => if f_finite f then 0 else 7
      | _ => 0
      end
  | CBool =>
      match v with
      | JStr s => if str_eqb (lower s) s_true || str_eqb (lower s) s_false then 4 else 0
      | _ => 0
      end
  | CFloat =>
      match v with
      | JStr s => match parse_float o s with None => 0 | Some f => if is_float_tok (f_tok f) then 6 else 1 end
      | JFloat f => if is_float_tok (f_tok f) then 0 else 1
      | JInt z => match float_of_int o z with None => 7 | Some f => if is_float_tok (f_tok f) then 0 else 1 end
      | _ => 0
      end
  | CStr =>
      match v with
      | JNull => 0
      | JStr s => if has_dq s then 5 else if repr_printable s then 0 else 9
      | _ => 2
      end
  | CDate | CDateTime =>
      match v with
      | JStr s => if isoparse_ok o s then (if repr_printable s then 0 else 9) else 0
      | _ => 0
      end
  | CUuid =>
      match v with
      | JStr s => if uuid_ok o s then (if repr_printable s then 0 else 9) else 0
      | _ => 0
      end
  | CNone => match v with JStr s => if str_eqb s s_None then 10 else 0 | _ => 0 end
  | CFile | CModel => 0
  | _ => 11
  end.

Theorem default_null : forall o k, convert_value o k JNull = Ok None.
Proof. intros o k. destruct k; reflexivity. Qed.

(* What the guard buys: a non-null default is converted to the expression of its typed value, which the evaluator
   reads back, or is rejected if it has none. *)
Definition renders (o : oracles) (k : ckind) (v : jval) (r : result) : Prop :=
  match typed_value o k v with
  | Some pv => r = Ok (Some {| code := emit pv; raw := v |}) /\ emittable pv = true
  | None => r = Err
  end.

Lemma guarded_renders o k v : default_class o k v = 0 -> v <> JNull -> renders o k v (convert_value o k v).
Proof.
  intros Hc Hv. unfold renders.
  (* a pair (kind, value) that has no typed value and is rejected outright closes by reflexivity; these are left *)
  destruct k; try discriminate Hc; destruct v as [|b|z|f|s|s]; try (destruct (Hv eq_refl)); try discriminate Hc;
    try reflexivity;
    cbn [convert_value typed_value default_class conv_none conv_bool conv_int conv_float conv_string conv_date conv_datetime
         conv_uuid py_str] in *; rewrite ?int_of_float_spec.
  - (* CNone, JStr *) destruct (str_eqb s s_None); [discriminate Hc | reflexivity].
  - (* CBool, JBool *) split; reflexivity.
  - (* CBool, JStr *) destruct (str_eqb (lower s) s_true); [discriminate Hc|].
    destruct (str_eqb (lower s) s_false); [discriminate Hc | reflexivity].
  - (* CInt, JInt *) split; reflexivity.
  - (* CInt, JFloat *) destruct (f_finite f); [|discriminate Hc]. destruct (f_int f); [split|]; reflexivity.
  - (* CInt, JStr *) destruct (parse_float o s) as [f|]; [|reflexivity]. rewrite int_of_float_spec.
    destruct (f_finite f); [|discriminate Hc]. destruct (f_int f); [discriminate Hc | reflexivity].
  - (* CFloat, JInt *) destruct (float_of_int o z) as [f|]; [|discriminate Hc].
    destruct (is_float_tok (f_tok f)) eqn:E; [split; [reflexivity | exact E] | discriminate Hc].
  - (* CFloat, JFloat *) destruct (is_float_tok (f_tok f)) eqn:E; [split; [reflexivity | exact E] | discriminate Hc].
  - (* CFloat, JStr *) destruct (parse_float o s) as [f|]; [|reflexivity]. destruct (is_float_tok (f_tok f)); discriminate Hc.
  - (* CStr, JStr: without a double quote the escaped spelling is the string itself *)
    destruct (has_dq s) eqn:Eq; [discriminate Hc|]. destruct (repr_printable s) eqn:Ep; [|discriminate Hc].
    rewrite (escape_dq_id s Eq). split; [reflexivity | exact Ep].
  - (* CDate, JStr *) destruct (isoparse_ok o s); [|reflexivity].
    destruct (repr_printable s) eqn:Ep; [split; [reflexivity | exact Ep] | discriminate Hc].
  - (* CDateTime, JStr *) destruct (isoparse_ok o s); [|reflexivity].
    destruct (repr_printable s) eqn:Ep; [split; [reflexivity | exact Ep] | discriminate Hc].
  - (* CUuid, JStr *) destruct (uuid_ok o s); [|reflexivity].
    destruct (repr_printable s) eqn:Ep; [split; [reflexivity | exact Ep] | discriminate Hc].
Qed.

Theorem default_complete : forall o k v,
  default_class o k v = 0 -> v <> JNull -> typed_value o k v = None -> convert_value o k v = Err.
Proof.
  intros o k v Hc Hv Ht. pose proof (guarded_renders o k v Hc Hv) as R. unfold renders in R. rewrite Ht in R. exact R.
Qed.

(* the form used for the defaults that went through a reference or a merge *)
Lemma guarded_default_sound o k v d : default_class o k v = 0 -> v <> JNull -> convert_value o k v = Ok d ->
  exists x pv, d = Some x /\ typed_value o k v = Some pv /\ eval_code (code x) = Some pv.
Proof.
  intros Hc Hv H. pose proof (guarded_renders o k v Hc Hv) as R. unfold renders in R.
  destruct (typed_value o k v) as [pv|]; [destruct R as [R E] | rewrite R in H; discriminate H].
  rewrite R in H. injection H as <-. exists {| code := emit pv; raw := v |}, pv. cbn [code]. auto using eval_emit.
Qed.

Theorem default_sound : forall o k v x,
  default_class o k v = 0 -> convert_value o k v = Ok (Some x) ->
  exists pv, typed_value o k v = Some pv /\ eval_code (code x) = Some pv.
Proof.
  intros o k v x Hc H. assert (Hv : v <> JNull) by (intros ->; rewrite default_null in H; discriminate H).
  destruct (guarded_default_sound o k v _ Hc Hv H) as (x' & pv & [= <-] & Ht & He). exists pv. auto.
Qed.

(* witnesses for the classes 1-5 and 7, and two for kinds the guard leaves out *)
Definition wit_oracles : oracles :=
  {| parse_float := fun s => if str_eqb s [51;46;48] then Some {| f_tok := [51;46;48]; f_int := Some 3%Z; f_finite := true |}
                             else if str_eqb s [105;110;102] then Some {| f_tok := [105;110;102]; f_int := None; f_finite := false |} else None;
     float_of_int := fun _ => None; isoparse_ok := fun _ => false; uuid_ok := fun _ => true |}.

(* string_lenient: the integer 5 offered to a string property is accepted and becomes the string '5' *)
Theorem string_lenient_refuted : exists x, convert_value wit_oracles CStr (JInt 5) = Ok (Some x) /\ typed_value wit_oracles CStr (JInt 5) = None.
Proof. eexists. split; reflexivity. Qed.
(* int_lenient: the string 3.0 offered to an integer property is accepted *)
Theorem int_lenient_refuted : exists x, convert_value wit_oracles CInt (JStr [51;46;48]) = Ok (Some x) /\ typed_value wit_oracles CInt (JStr [51;46;48]) = None.
Proof. eexists. split; reflexivity. Qed.
(* bool_lenient: the string TRUE offered to a boolean property is accepted *)
Theorem bool_lenient_refuted : exists x, convert_value wit_oracles CBool (JStr [84;82;85;69]) = Ok (Some x) /\ typed_value wit_oracles CBool (JStr [84;82;85;69]) = None.
Proof. eexists. split; vm_compute; reflexivity. Qed.
(* float_token: inf becomes the bare name inf *)
Theorem float_token_refuted : exists x, convert_value wit_oracles CFloat (JStr [105;110;102]) = Ok (Some x) /\ eval_code (code x) = None.
Proof. eexists. split; [reflexivity | vm_compute; reflexivity]. Qed.
(* default_nonfinite_crash: the string inf offered to an integer property raises OverflowError *)
Theorem int_nonfinite_crash_refuted : convert_value wit_oracles CInt (JStr [105;110;102]) = Crash.
Proof. reflexivity. Qed.
(* default_dq: a string default containing a double quote evaluates to a different string *)
Theorem default_dq_refuted : exists x, convert_value wit_oracles CStr (JStr [97;34;98]) = Ok (Some x) /\ eval_code (code x) <> Some (PVStr [97;34;98]).
Proof. eexists. split; [reflexivity | vm_compute; discriminate]. Qed.
(* union_first_match: the default 3 of anyOf[string, integer] is converted by the string member *)
Theorem union_first_match_refuted : exists x,
  convert_value wit_oracles (CUnion [CStr; CInt]) (JInt 3) = Ok (Some x) /\ eval_code (code x) = Some (PVStr [51]).
Proof. eexists. split; [reflexivity | vm_compute; reflexivity]. Qed.
(* enum_default_dq: a default equal to a listed value containing a double quote is rejected (the table holds the escaped spelling) *)
Theorem enum_default_dq_refuted : exists m,
  values_from_list [EStr [97;34;98]; EStr [99]] = Some m /\ conv_enum VStr [69] m (JStr [97;34;98]) = Err.
Proof. eexists. split; vm_compute; reflexivity. Qed.

Example default_guard_nontrivial :
  default_class wit_oracles CStr (JStr [97;39;92;32;233]) = 0 /\ default_class wit_oracles CInt (JFloat {| f_tok := [51;46;48]; f_int := Some 3%Z; f_finite := true |}) = 0 /\
  default_class wit_oracles CUuid (JStr [49;50]) = 0.
Proof. split; [|split]; vm_compute; reflexivity. Qed.

Print Assumptions float_tok_evals.
Print Assumptions conv_float_sound.
Print Assumptions conv_float_complete.
Print Assumptions conv_date_sound.
Print Assumptions conv_datetime_sound.
Print Assumptions conv_uuid_sound.
Print Assumptions default_null.
Print Assumptions default_sound.
Print Assumptions default_complete.
