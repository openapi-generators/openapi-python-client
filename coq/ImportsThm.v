(* ImportsThm.v — proofs about Imports.v and the regenerated table gen/GenClosed.v (C01). *)
From Coq Require Import NArith List Bool.
Import ListNotations.
Require Import OPC.gen.GenClosed OPC.Uni OPC.Imports.
Open Scope N_scope.

Lemma mem_name_app n a b : mem_name n (a ++ b) = mem_name n a || mem_name n b.
Proof. apply existsb_app. Qed.

(* if every property's fragments only read names that the property's own imports or the fixed header provide, then a module
   assembled from ANY list of properties reads only names that the module provides *)
Theorem module_names_closed : forall header fs,
  forallb (closed_frag header) fs = true ->
  forallb (fun n => mem_name n (module_provided header fs)) (module_used fs) = true.
Proof.
  intros header fs. induction fs as [|f fs IH]; intros H; [reflexivity|].
  cbn [forallb] in H. apply andb_true_iff in H as [Hf Hfs]. specialize (IH Hfs).
  unfold module_used, module_provided, closed_frag in *. cbn [flat_map]. rewrite forallb_app. apply andb_true_iff.
  rewrite forallb_forall in Hf, IH. split; apply forallb_forall; intros n Hn; rewrite !mem_name_app.
  - (* read by f *)
    apply Hf, orb_true_iff in Hn as [-> | ->]; [now destruct (mem_name n header)|reflexivity].
  - (* read by a later property *)
    apply IH in Hn. rewrite mem_name_app in Hn. apply orb_true_iff in Hn as [-> | ->]; [reflexivity|now rewrite !orb_true_r].
Qed.

(* regenerated fact: in every module of every probe package (every property kind in every position, parameters in every
   location, bodies, responses, both enum styles) nothing is read that is not provided, and every relative import resolves *)
Theorem all_probe_modules_closed : gen_unprovided = [].
Proof. reflexivity. Qed.
Example probes_nonvacuous : (100 <=? gen_modules_analysed) = true.
Proof. reflexivity. Qed.
