(* RetryThm.v -- the retry loop computes a least fixed point, hence its result does not depend on the order of the to-do list.
   Proved once for the loop with a recursion test `self`; the plain loop is the instance whose test never fires. *)
From Coq Require Import NArith List Bool Lia Permutation PeanoNat.
Import ListNotations.
Require Import OPC.Retry.
Open Scope N_scope.

(* the order-free specification: n is derivable iff it is in the document and everything it depends on is derivable *)
Inductive Derivable (g : graph) (todo : list N) : N -> Prop :=
| der : forall n, In n todo -> (forall d, In d (deps g n) -> Derivable g todo d) -> Derivable g todo n.

Lemma memn_in n l : memn n l = true <-> In n l.
Proof.
  unfold memn. rewrite existsb_exists. split.
  - intros [x [Hx He]]. apply N.eqb_eq in He. now subst.
  - intro H. exists n. split; [exact H|apply N.eqb_refl].
Qed.

Lemma ready_spec g done n : ready g done n = true <-> (forall d, In d (deps g n) -> In d done).
Proof.
  unfold ready. rewrite forallb_forall. split; intros H d Hd.
  - apply memn_in. now apply H.
  - apply memn_in. now apply H.
Qed.

Lemma first_missing_none g done n : first_missing g done n = None <-> (forall d, In d (deps g n) -> In d done).
Proof.
  unfold first_missing. split.
  - intros H d Hd. pose proof (find_none _ _ H d Hd) as Hn. apply negb_false_iff in Hn. now apply memn_in.
  - intro H. destruct (find (fun d => negb (memn d done)) (deps g n)) as [r|] eqn:F; [|reflexivity].
    apply find_some in F. destruct F as [Hr Hm]. apply negb_true_iff in Hm.
    apply H, memn_in in Hr. congruence.
Qed.

Lemma first_missing_some g done n r : first_missing g done n = Some r -> In r (deps g n) /\ ~ In r done.
Proof.
  unfold first_missing. intro F. apply find_some in F. destruct F as [Hr Hm]. split; [exact Hr|].
  apply negb_true_iff in Hm. intro Hin. apply memn_in in Hin. congruence.
Qed.

(* a derivable node does not depend on itself (Derivable is the LEAST fixed point) *)
Lemma derivable_not_self g T n : Derivable g T n -> ~ In n (deps g n).
Proof. induction 1 as [n _ _ IH]. intro H. exact (IH n H H). Qed.

Lemma derivable_mono g todo todo' n : (forall x, In x todo -> In x todo') -> Derivable g todo n -> Derivable g todo' n.
Proof. intros Hi. induction 1 as [n Hin _ IH]. constructor; [now apply Hi|exact IH]. Qed.

Section Rec.
  Variables (self : N -> N -> bool) (g : graph).

  (* last conjunct: a round that handles nothing changes nothing and found every node waiting *)
  Lemma round_rec_spec : forall todo done,
    let r := round_rec self g done todo in
    (forall x, In x done -> In x (fst r)) /\
    (forall x, In x (snd r) -> In x todo) /\
    (forall x, In x todo -> In x (fst r) \/ In x (snd r) \/ exists m, self x m = true /\ In m (deps g x)) /\
    (forall T, (forall x, In x done -> Derivable g T x) -> (forall x, In x todo -> In x T) -> forall x, In x (fst r) -> Derivable g T x) /\
    (length done <= length (fst r))%nat /\
    (length (fst r) + length (snd r) <= length done + length todo)%nat /\
    (length (fst r) = length done -> fst r = done /\ forall x, In x todo -> first_missing g done x <> None).
  Proof.
    induction todo as [|n t IH]; intro done; cbn [round_rec].
    - cbn. refine (conj _ (conj _ (conj _ (conj _ (conj _ (conj _ _)))))); auto; try tauto; try lia.
    - destruct (first_missing g done n) as [r|] eqn:F.
      + specialize (IH done). cbn zeta in IH. destruct IH as (Imono & Ileft & Icover & Isound & Igrow & Ilen & Istuck).
        assert (Csound : forall T, (forall x, In x done -> Derivable g T x) -> (forall x, In x (n :: t) -> In x T) ->
                     forall x, In x (fst (round_rec self g done t)) -> Derivable g T x).
        { intros T Hd Ht. apply Isound; [exact Hd|]. intros y Hy. apply Ht. now right. }
        assert (Cstuck : length (fst (round_rec self g done t)) = length done ->
                     fst (round_rec self g done t) = done /\ forall x, In x (n :: t) -> first_missing g done x <> None).
        { intro H. destruct (Istuck H) as [J1 J2]. split; [exact J1|]. intros x [Hx|Hx]; [subst; congruence|now apply J2]. }
        cbn zeta. destruct (self n r) eqn:E.
        * refine (conj Imono (conj _ (conj _ (conj Csound (conj Igrow (conj _ Cstuck)))))).
          -- intros x Hx. right. now apply Ileft.
          -- intros x [Hx|Hx]; [|now apply Icover]. subst x. right. right. exists r. split; [exact E|].
             now apply first_missing_some in F.
          -- cbn [length]. lia.
        * cbn [fst snd]. refine (conj Imono (conj _ (conj _ (conj Csound (conj Igrow (conj _ Cstuck)))))).
          -- intros x [Hx|Hx]; [now left|right; now apply Ileft].
          -- intros x [Hx|Hx]; [subst; right; left; now left|].
             destruct (Icover x Hx) as [H|[H|H]]; [now left|right; left; now right|right; right; exact H].
          -- cbn [length]. lia.
      + specialize (IH (n :: done)). cbn zeta in IH. destruct IH as (Imono & Ileft & Icover & Isound & Igrow & Ilen & Istuck).
        cbn zeta. refine (conj _ (conj _ (conj _ (conj _ (conj _ (conj _ _)))))).
        * intros x Hx. apply Imono. now right.
        * intros x Hx. right. now apply Ileft.
        * intros x [Hx|Hx]; [subst; left; apply Imono; now left|now apply Icover].
        * intros T Hd Ht. apply Isound; [|intros y Hy; apply Ht; now right].
          intros y [Hy|Hy]; [subst y|now apply Hd].
          constructor; [apply Ht; now left|]. intros d Hdep. apply Hd. rewrite first_missing_none in F. now apply F.
        * cbn [length] in Igrow. lia.
        * cbn [length] in Ilen |- *. lia.
        * cbn [length] in Igrow. intro H. lia.
  Qed.

  (* when the fuel exceeds the length of the to-do list the loop ends because a round made no progress: what is left is stuck *)
  Lemma retry_rec_spec : forall fuel done todo, (length todo < fuel)%nat ->
    let r := retry_rec self fuel g done todo in
    (forall x, In x done -> In x (fst r)) /\
    (forall x, In x (snd r) -> In x todo) /\
    (forall x, In x todo -> In x (fst r) \/ In x (snd r) \/ exists m, self x m = true /\ In m (deps g x)) /\
    (forall x, In x (snd r) -> first_missing g (fst r) x <> None) /\
    (forall T, (forall x, In x done -> Derivable g T x) -> (forall x, In x todo -> In x T) -> forall x, In x (fst r) -> Derivable g T x).
  Proof.
    induction fuel as [|f IH]; intros done todo Hf; [lia|].
    cbn [retry_rec]. pose proof (round_rec_spec todo done) as R. cbn zeta in R. destruct R as (Rmono & Rleft & Rcover & Rsound & Rgrow & Rlen & Rstuck).
    cbn zeta. destruct (Nat.eqb_spec (length (fst (round_rec self g done todo))) (length done)) as [E|E].
    - destruct (Rstuck E) as [J1 J2]. refine (conj Rmono (conj Rleft (conj Rcover (conj _ Rsound)))).
      intros x Hx. rewrite J1. apply J2. now apply Rleft.
    - assert (Hlt : (length (snd (round_rec self g done todo)) < f)%nat) by lia.
      specialize (IH (fst (round_rec self g done todo)) (snd (round_rec self g done todo)) Hlt). cbn zeta in IH.
      destruct IH as (Kmono & Kleft & Kcover & Kstuck & Ksound). refine (conj _ (conj _ (conj _ (conj Kstuck _)))).
      + intros x Hx. apply Kmono. now apply Rmono.
      + intros x Hx. apply Rleft. now apply Kleft.
      + intros x Hx. destruct (Rcover x Hx) as [H|[H|H]]; [left; now apply Kmono|now apply Kcover|right; right; exact H].
      + intros T Hd Ht. apply Ksound; [now apply Rsound|]. intros y Hy. apply Ht. now apply Rleft.
  Qed.

  Lemma process_rec_spec todo :
    let r := process_rec self g todo in
    (forall x, In x (snd r) -> In x todo) /\
    (forall x, In x todo -> In x (fst r) \/ In x (snd r) \/ exists m, self x m = true /\ In m (deps g x)) /\
    (forall x, In x (snd r) -> first_missing g (fst r) x <> None) /\
    (forall x, In x (fst r) -> Derivable g todo x).
  Proof.
    pose proof (retry_rec_spec (S (length todo)) [] todo (Nat.lt_succ_diag_r _)) as S. cbn zeta in S.
    destruct S as (_ & S2 & S3 & S4 & S5). cbn zeta. refine (conj S2 (conj S3 (conj S4 _))).
    apply S5; [intros x []|auto].
  Qed.

  Theorem rec_sound todo n : In n (fst (process_rec self g todo)) -> Derivable g todo n.
  Proof. apply process_rec_spec. Qed.

  (* the recursion test is exact when it only fires on nodes that are not derivable *)
  Hypothesis self_exact : forall T n m, self n m = true -> In m (deps g n) -> ~ Derivable g T n.

  Theorem rec_complete todo n : Derivable g todo n -> In n (fst (process_rec self g todo)).
  Proof.
    destruct (process_rec_spec todo) as (_ & S2 & S3 & _).
    intro D. induction D as [n Hin Hd IH].
    destruct (S2 n Hin) as [H|[H|(m & Hs & Hm)]]; [exact H| |].
    - exfalso. apply (S3 n H). apply first_missing_none. exact IH.
    - exfalso. apply (self_exact todo n m Hs Hm). now constructor.
  Qed.

  Theorem rec_leftover todo n : In n (snd (process_rec self g todo)) -> In n todo /\ ~ Derivable g todo n.
  Proof.
    destruct (process_rec_spec todo) as (S1 & _ & S3 & _).
    intro H. split; [now apply S1|]. intro D. inversion D as [? _ Hd]; subst.
    apply (S3 n H). apply first_missing_none. intros d Hdep. apply rec_complete. now apply Hd.
  Qed.

  Theorem rec_order_independent todo todo' : Permutation todo todo' ->
    forall n, In n (fst (process_rec self g todo)) <-> In n (fst (process_rec self g todo')).
  Proof.
    assert (Half : forall a b, Permutation a b -> forall n, In n (fst (process_rec self g a)) -> In n (fst (process_rec self g b))).
    { intros a b Hp n H. apply rec_complete. eapply derivable_mono; [|apply rec_sound; exact H].
      intros x Hx. eapply Permutation_in; eassumption. }
    intros Hp n. split; apply Half; [exact Hp|apply Permutation_sym; exact Hp].
  Qed.
End Rec.

Lemma eqb_exact g T n m : (n =? m) = true -> In m (deps g n) -> ~ Derivable g T n.
Proof. intros E Hm D. apply N.eqb_eq in E. subst m. exact (derivable_not_self g T n D Hm). Qed.

Theorem process_rec_sound g todo n : In n (fst (process_rec N.eqb g todo)) -> Derivable g todo n.
Proof. apply rec_sound. Qed.

Theorem process_rec_complete g todo n : Derivable g todo n -> In n (fst (process_rec N.eqb g todo)).
Proof. apply rec_complete. exact (eqb_exact g). Qed.

Theorem rec_exact_order_independent g todo todo' : Permutation todo todo' ->
  forall n, In n (fst (process_rec N.eqb g todo)) <-> In n (fst (process_rec N.eqb g todo')).
Proof. apply rec_order_independent. exact (eqb_exact g). Qed.

(* a sloppy test (child 1 = Cat is taken for its parent 2 = WildCat) finalises the child when it comes before its parent *)
Theorem rec_sloppy_refuted : exists self g todo todo' n,
  Permutation todo todo' /\ In n (fst (process_rec self g todo')) /\ ~ In n (fst (process_rec self g todo)).
Proof.
  exists (fun n r => (n =? r) || ((n =? 1) && (r =? 2))), [(1, [2]); (2, [])], [1; 2], [2; 1], 1.
  split; [apply perm_swap|]. vm_compute. split; [now left|]. intros [H|[]]. discriminate.
Qed.

Lemma ready_first_missing g done n : ready g done n = match first_missing g done n with None => true | Some _ => false end.
Proof.
  unfold ready, first_missing. induction (deps g n) as [|d l IH]; [reflexivity|].
  cbn [forallb find]. destruct (memn d done); [exact IH|reflexivity].
Qed.

(* the plain loop is the loop whose test never fires *)
Lemma round_as_rec g : forall todo done, round g done todo = round_rec (fun _ _ => false) g done todo.
Proof.
  induction todo as [|n t IH]; intro done; cbn [round round_rec]; [reflexivity|].
  rewrite ready_first_missing, !IH. destruct (first_missing g done n); reflexivity.
Qed.

(* nothing is finalised, so the two progress tests (shorter queue / longer done list) agree *)
Lemma round_length g : forall todo done,
  (length (fst (round g done todo)) + length (snd (round g done todo)) = length done + length todo)%nat.
Proof.
  induction todo as [|n t IH]; intro done; cbn [round]; [cbn; lia|].
  pose proof (IH done) as L. pose proof (IH (n :: done)) as L'.
  destruct (ready g done n); cbn [fst snd length] in *; lia.
Qed.

Lemma retry_as_rec g : forall fuel done todo, retry fuel g done todo = retry_rec (fun _ _ => false) fuel g done todo.
Proof.
  induction fuel as [|f IH]; intros done todo; cbn [retry retry_rec]; [reflexivity|].
  rewrite <- round_as_rec. cbn zeta. pose proof (round_length g todo done) as L.
  destruct (Nat.eqb_spec (length (snd (round g done todo))) (length todo));
    destruct (Nat.eqb_spec (length (fst (round g done todo))) (length done)); try lia; [reflexivity|apply IH].
Qed.

Lemma process_as_rec g todo : process g todo = process_rec (fun _ _ => false) g todo.
Proof. apply retry_as_rec. Qed.

Theorem process_sound g todo n : In n (fst (process g todo)) -> Derivable g todo n.
Proof. rewrite process_as_rec. apply rec_sound. Qed.

Theorem process_complete g todo n : Derivable g todo n -> In n (fst (process g todo)).
Proof. rewrite process_as_rec. apply rec_complete. discriminate. Qed.

Theorem process_leftover g todo n : In n (snd (process g todo)) -> In n todo /\ ~ Derivable g todo n.
Proof. rewrite process_as_rec. apply rec_leftover. discriminate. Qed.

Theorem order_independent g todo todo' : Permutation todo todo' ->
  forall n, In n (fst (process g todo)) <-> In n (fst (process g todo')).
Proof. rewrite !process_as_rec. apply rec_order_independent. discriminate. Qed.

(* a diagnostic-free run (nothing left over) handles the whole document, in every order *)
Theorem clean_run_order_independent g todo todo' : Permutation todo todo' ->
  snd (process g todo) = [] -> forall n, In n todo' -> In n (fst (process g todo')).
Proof.
  intros Hp Hs n Hn.
  apply (order_independent g todo todo' Hp).
  assert (Hin : In n todo) by (eapply Permutation_in; [apply Permutation_sym|]; eassumption).
  rewrite process_as_rec in *.
  destruct (process_rec_spec (fun _ _ => false) g todo) as (_ & S2 & _).
  destruct (S2 n Hin) as [H|[H|(m & Hm & _)]]; [exact H|rewrite Hs in H; destruct H|discriminate].
Qed.

(* non-vacuity: parent declared after child, mutual dependency is stuck, forward reference resolved in round 2 *)
Example retry_example :
  let g := [(1, [2]); (2, [3]); (3, []); (4, [5]); (5, [4])] in
  process g [1; 2; 3; 4; 5] = ([1; 2; 3], [4; 5]) /\ process g [5; 4; 3; 2; 1] = ([1; 2; 3], [5; 4]).
Proof. vm_compute. split; reflexivity. Qed.

(* in the model a failed attempt leaves no trace: the nodes after a node that is not ready see exactly the state it saw (the correspondence
   checks this hypothesis on the real Schemas object before / after every failed update_schemas_with_data and process_model) *)
Theorem failed_attempt_no_trace g done n t : ready g done n = false ->
  round g done (n :: t) = (fst (round g done t), n :: snd (round g done t)).
Proof. intro H. cbn [round]. now rewrite H. Qed.
