(* UniFast.v — logarithmic lookups for the regenerated Unicode tables.

   Uni.v scans a table of ~700 ranges (in_ranges) or ~1400 case-map entries (lookup) from the front.  That is the
   definition of the model; it is also what every evaluated fact about the tables pays per character.  Here a sorted
   table is turned, by computation, into a balanced search tree, and `tfind (tree_of es) c = lfind es c` is proved once
   for every sorted table (`asc`, a linear boolean check).  The classes of Uni.v then have tree-backed twins
   (is_word_f, lower_f, ...) that are equal to them at every code point; facts about the tables are evaluated on the
   twins and transported.  ASCII code points, the bulk of what the sweeps meet, are answered by a trie on their bits that is
   tabulated from the tree lookup; membership in a word list (mem_str) goes through a trie of the words by first character. *)
From Coq Require Import NArith List Bool Lia.
Import ListNotations.
Require Import OPC.gen.GenTables OPC.Uni.
Open Scope N_scope.

Section IntervalTree.
  Context {A : Type}.

  (* an entry (a, b, v) maps every c with a <= c <= b to v; the first matching entry wins *)
  Definition entry := (N * N * A)%type.

  Fixpoint lfind (es : list entry) (c : N) : option A :=
    match es with
    | [] => None
    | (a, b, v) :: es' => if (a <=? c) && (c <=? b) then Some v else lfind es' c
    end.

  Inductive tree := Leaf | Node (l : tree) (a b : N) (v : A) (r : tree).

  Fixpoint tfind (t : tree) (c : N) : option A :=
    match t with
    | Leaf => None
    | Node l a b v r => if c <? a then tfind l c else if c <=? b then Some v else tfind r c
    end.

  Fixpoint elems (t : tree) : list entry :=
    match t with Leaf => [] | Node l a b v r => elems l ++ (a, b, v) :: elems r end.

  (* bld d es: a tree of depth at most d over a prefix of es, in order, and the entries left over; linear in the prefix *)
  Fixpoint bld (d : nat) (es : list entry) : tree * list entry :=
    match d with
    | O => (Leaf, es)
    | S d' =>
        let (l, es1) := bld d' es in
        match es1 with
        | [] => (l, [])
        | (a, b, v) :: es2 => let (r, es3) := bld d' es2 in (Node l a b v r, es3)
        end
    end.

  (* non-empty intervals, strictly ascending and disjoint, all at or above lo *)
  Fixpoint asc (lo : N) (es : list entry) : bool :=
    match es with
    | [] => true
    | (a, b, _) :: es' => (lo <=? a) && (a <=? b) && asc (N.succ b) es'
    end.

  Lemma lfind_app es1 es2 c :
    lfind (es1 ++ es2) c = match lfind es1 c with Some v => Some v | None => lfind es2 c end.
  Proof.
    induction es1 as [|[[a b] v] es1 IH]; cbn [app lfind]; [reflexivity|].
    now destruct ((a <=? c) && (c <=? b)).
  Qed.

  Lemma asc_below lo es c : asc lo es = true -> c < lo -> lfind es c = None.
  Proof.
    revert lo. induction es as [|[[a b] v] es IH]; intros lo H Hc; cbn [asc lfind] in *; [reflexivity|].
    apply andb_true_iff in H as [H Hes]. apply andb_true_iff in H as [Ha Hab].
    apply N.leb_le in Ha, Hab. replace (a <=? c) with false by (symmetry; apply N.leb_gt; lia).
    apply (IH (N.succ b)); [exact Hes | lia].
  Qed.

  Lemma asc_mid lo es1 a b v es2 : asc lo (es1 ++ (a, b, v) :: es2) = true ->
    asc lo es1 = true /\ lo <= a /\ a <= b /\ asc (N.succ b) es2 = true /\ forall c, a <= c -> lfind es1 c = None.
  Proof.
    revert lo. induction es1 as [|[[a1 b1] v1] es1 IH]; intros lo H; cbn [app asc lfind] in *;
      apply andb_true_iff in H as [Hb Hes]; pose proof Hb as Hle; apply andb_true_iff in Hle as [H1 H2]; apply N.leb_le in H1, H2.
    - auto.
    - destruct (IH _ Hes) as (Hl & Ha & Hab & Hr & Hnone). rewrite Hb, Hl. repeat split; auto; [lia|].
      intros c Hc. replace (c <=? b1) with false by (symmetry; apply N.leb_gt; lia).
      rewrite andb_false_r. now apply Hnone.
  Qed.

  Theorem tfind_elems t : forall lo, asc lo (elems t) = true -> forall c, tfind t c = lfind (elems t) c.
  Proof.
    induction t as [|l IHl a b v r IHr]; intros lo Hasc c; cbn [elems tfind]; [reflexivity|].
    cbn [elems] in Hasc. destruct (asc_mid _ _ _ _ _ _ Hasc) as (Hl & _ & Hab & Hr & Hnone).
    rewrite lfind_app. cbn [lfind]. destruct (N.ltb_spec c a) as [Hca|Hca].
    - rewrite (IHl lo Hl). destruct (lfind (elems l) c); [reflexivity|].
      replace (a <=? c) with false by (symmetry; apply N.leb_gt; lia). cbn [andb].
      symmetry. apply (asc_below _ _ _ Hr). lia.
    - rewrite Hnone by exact Hca. replace (a <=? c) with true by (symmetry; apply N.leb_le; lia). cbn [andb].
      destruct (c <=? b); [reflexivity | exact (IHr _ Hr c)].
  Qed.

  Lemma bld_elems d : forall es, elems (fst (bld d es)) ++ snd (bld d es) = es.
  Proof.
    induction d as [|d IH]; intro es; cbn [bld]; [reflexivity|].
    specialize (IH es) as H1. destruct (bld d es) as [l es1]. cbn [fst snd] in H1.
    destruct es1 as [|[[a b] v] es2]; [exact H1|].
    specialize (IH es2) as H2. destruct (bld d es2) as [r es3]. cbn [fst snd elems] in *.
    rewrite <- H1, <- H2. now rewrite <- app_assoc.
  Qed.

  (* depth d uses up at least d entries, so depth (length es) uses up es *)
  Lemma bld_rest d : forall es, (length (snd (bld d es)) <= length es - d)%nat.
  Proof.
    induction d as [|d IH]; intro es; cbn [bld]; [cbn [snd]; lia|].
    specialize (IH es) as H1. destruct (bld d es) as [l es1]. cbn [snd] in H1.
    destruct es1 as [|[[a b] v] es2]; [cbn [snd length]; lia|].
    specialize (IH es2) as H2. destruct (bld d es2) as [r es3]. cbn [snd length] in *. lia.
  Qed.

  Definition tree_of (es : list entry) : tree := fst (bld (length es) es).

  Lemma tree_of_elems es : elems (tree_of es) = es.
  Proof.
    pose proof (bld_elems (length es) es) as He. pose proof (bld_rest (length es) es) as Hr. fold (tree_of es) in He.
    destruct (snd (bld (length es) es)); [now rewrite app_nil_r in He | cbn [length] in Hr; lia].
  Qed.

  Theorem tfind_tree_of es c : asc 0 es = true -> tfind (tree_of es) c = lfind es c.
  Proof. intro Hasc. rewrite <- (tree_of_elems es) in Hasc |- * at 2. exact (tfind_elems _ _ Hasc c). Qed.
End IntervalTree.

(* Most characters the table sweeps meet are ASCII.  For those the value of a class is read off a trie by one match per bit,
   with no comparison at all; the trie is tabulated from the function it stands for, so it agrees with it by construction. *)
Section Trie.
  Context {A : Type}.
  Inductive trie := TLeaf | TNode (zero : trie) (here : option A) (one : trie).

  Fixpoint tget (t : trie) (p : positive) : option A :=
    match t with
    | TLeaf => None
    | TNode z h o => match p with xH => h | xO q => tget z q | xI q => tget o q end
    end.

  Fixpoint tput (p : positive) (v : A) (t : trie) : trie :=
    let '(z, h, o) := match t with TLeaf => (TLeaf, None, TLeaf) | TNode z h o => (z, h, o) end in
    match p with
    | xH => TNode z (Some v) o
    | xO q => TNode (tput q v z) h o
    | xI q => TNode z h (tput q v o)
    end.

  Lemma tget_tput p v : forall t q, tget (tput p v t) q = if Pos.eqb p q then Some v else tget t q.
  Proof.
    induction p as [p IH|p IH|]; intros t q; destruct t as [|z h o], q as [q|q|]; cbn [tput tget Pos.eqb];
      rewrite ?IH; try reflexivity; now destruct (Pos.eqb p q).
  Qed.

  Variable f : N -> A.
  Definition tabulate (ps : list positive) : trie := fold_right (fun p t => tput p (f (Npos p)) t) TLeaf ps.
  Definition via (t : trie) (c : N) : A :=
    match c with Npos p => match tget t p with Some v => v | None => f c end | N0 => f c end.

  Lemma via_tabulate ps c : via (tabulate ps) c = f c.
  Proof.
    destruct c as [|q]; [reflexivity|]. cbn [via].
    induction ps as [|p ps IH]; cbn [tabulate fold_right tget]; [reflexivity|].
    fold (tabulate ps). rewrite tget_tput. destruct (Pos.eqb_spec p q) as [->|_]; [reflexivity | exact IH].
  Qed.
End Trie.
Definition ascii : list positive := map Pos.of_nat (seq 1 127).

Definition of_ranges (rs : list (N * N)) : list (@entry unit) := map (fun r => (fst r, snd r, tt)) rs.
Definition of_map (m : list (N * list N)) : list (@entry (list N)) := map (fun kv => (fst kv, fst kv, snd kv)) m.
Definition tmem (t : @tree unit) (c : N) : bool := match tfind t c with Some _ => true | None => false end.
Definition tmap (t : @tree (list N)) (c : N) : list N := match tfind t c with Some v => v | None => [c] end.

Lemma in_ranges_lfind rs c : in_ranges rs c = match lfind (of_ranges rs) c with Some _ => true | None => false end.
Proof.
  induction rs as [|[a b] rs IH]; cbn [in_ranges of_ranges map lfind fst snd]; [reflexivity|].
  fold (of_ranges rs). rewrite IH. now destruct ((a <=? c) && (c <=? b)).
Qed.

Lemma lookup_lfind m c : lookup m c = lfind (of_map m) c.
Proof.
  induction m as [|[k v] m IH]; cbn [lookup of_map map lfind fst snd]; [reflexivity|].
  fold (of_map m). rewrite IH. destruct (N.eqb_spec k c) as [->|Hne].
  - now rewrite N.leb_refl.
  - replace ((k <=? c) && (c <=? k)) with false; [reflexivity|].
    symmetry. apply andb_false_iff. destruct (N.leb_spec k c); [right; apply N.leb_gt; lia | now left].
Qed.

Lemma tmem_ranges rs c : asc 0 (of_ranges rs) = true -> tmem (tree_of (of_ranges rs)) c = in_ranges rs c.
Proof. intro H. unfold tmem. now rewrite tfind_tree_of, in_ranges_lfind. Qed.

Lemma tmap_map m c : asc 0 (of_map m) = true -> tmap (tree_of (of_map m)) c = map_c m c.
Proof. intro H. unfold tmap, map_c. now rewrite tfind_tree_of, lookup_lfind. Qed.

Definition word_t := tree_of (of_ranges tbl_word).
Definition isupper_t := tree_of (of_ranges tbl_isupper).
Definition islower_t := tree_of (of_ranges tbl_islower).
Definition istitle_t := tree_of (of_ranges tbl_istitle).
Definition xid_start_t := tree_of (of_ranges tbl_xid_start).
Definition xid_continue_t := tree_of (of_ranges tbl_xid_continue).
Definition lower_t := tree_of (of_map map_lower).
Definition title_t := tree_of (of_map map_title).

(* the ASCII tries are computed here once and stored as literals, so that an evaluation that meets ASCII only never builds a tree *)
Definition word_a := Eval vm_compute in tabulate (tmem word_t) ascii.
Definition isupper_a := Eval vm_compute in tabulate (tmem isupper_t) ascii.
Definition islower_a := Eval vm_compute in tabulate (tmem islower_t) ascii.
Definition istitle_a := Eval vm_compute in tabulate (tmem istitle_t) ascii.
Definition xid_start_a := Eval vm_compute in tabulate (tmem xid_start_t) ascii.
Definition xid_continue_a := Eval vm_compute in tabulate (tmem xid_continue_t) ascii.
Definition lower_a := Eval vm_compute in tabulate (tmap lower_t) ascii.
Definition title_a := Eval vm_compute in tabulate (tmap title_t) ascii.
Definition is_word_f := via (tmem word_t) word_a.
Definition c_isupper_f := via (tmem isupper_t) isupper_a.
Definition c_islower_f := via (tmem islower_t) islower_a.
Definition c_istitle_f := via (tmem istitle_t) istitle_a.
Definition xid_start_f := via (tmem xid_start_t) xid_start_a.
Definition xid_continue_f := via (tmem xid_continue_t) xid_continue_a.
Definition lower_f := via (tmap lower_t) lower_a.
Definition title_f := via (tmap title_t) title_a.

(* re-established on every regeneration of the tables: they are sorted *)
Lemma tables_sorted :
  forallb (fun rs => asc 0 (of_ranges rs)) [tbl_word; tbl_isupper; tbl_islower; tbl_istitle; tbl_xid_start; tbl_xid_continue] = true /\
  asc 0 (of_map map_lower) = true /\ asc 0 (of_map map_title) = true.
Proof. repeat split; vm_compute; reflexivity. Qed.

Lemma ranges_twin rs : In rs [tbl_word; tbl_isupper; tbl_islower; tbl_istitle; tbl_xid_start; tbl_xid_continue] ->
  forall c, tmem (tree_of (of_ranges rs)) c = in_ranges rs c.
Proof.
  intros H c. apply tmem_ranges. destruct tables_sorted as [S _]. rewrite forallb_forall in S. exact (S _ H).
Qed.

Lemma is_word_f_eq c : is_word_f c = is_word c.
Proof.
  unfold is_word_f. replace word_a with (tabulate (tmem word_t) ascii) by (vm_compute; reflexivity). rewrite via_tabulate.
  apply ranges_twin. cbn [In]. auto 8.
Qed.
Lemma c_isupper_f_eq c : c_isupper_f c = c_isupper c.
Proof.
  unfold c_isupper_f. replace isupper_a with (tabulate (tmem isupper_t) ascii) by (vm_compute; reflexivity). rewrite via_tabulate.
  apply ranges_twin. cbn [In]. auto 8.
Qed.
Lemma c_islower_f_eq c : c_islower_f c = c_islower c.
Proof.
  unfold c_islower_f. replace islower_a with (tabulate (tmem islower_t) ascii) by (vm_compute; reflexivity). rewrite via_tabulate.
  apply ranges_twin. cbn [In]. auto 8.
Qed.
Lemma c_istitle_f_eq c : c_istitle_f c = c_istitle c.
Proof.
  unfold c_istitle_f. replace istitle_a with (tabulate (tmem istitle_t) ascii) by (vm_compute; reflexivity). rewrite via_tabulate.
  apply ranges_twin. cbn [In]. auto 8.
Qed.
Lemma xid_start_f_eq c : xid_start_f c = xid_start c.
Proof.
  unfold xid_start_f. replace xid_start_a with (tabulate (tmem xid_start_t) ascii) by (vm_compute; reflexivity). rewrite via_tabulate.
  apply ranges_twin. cbn [In]. auto 8.
Qed.
Lemma xid_continue_f_eq c : xid_continue_f c = xid_continue c.
Proof.
  unfold xid_continue_f. replace xid_continue_a with (tabulate (tmem xid_continue_t) ascii) by (vm_compute; reflexivity). rewrite via_tabulate.
  apply ranges_twin. cbn [In]. auto 8.
Qed.
Lemma lower_f_eq c : lower_f c = lower_c c.
Proof.
  unfold lower_f. replace lower_a with (tabulate (tmap lower_t) ascii) by (vm_compute; reflexivity). rewrite via_tabulate.
  apply tmap_map, (proj1 (proj2 tables_sorted)).
Qed.
Lemma title_f_eq c : title_f c = title_c c.
Proof.
  unfold title_f. replace title_a with (tabulate (tmap title_t) ascii) by (vm_compute; reflexivity). rewrite via_tabulate.
  apply tmap_map, (proj2 (proj2 tables_sorted)).
Qed.

(* mem_str compares the candidate with every word; the index keeps, for each ASCII code, the words that start with it *)
Definition has_head (c : N) (w : str) : bool := match w with d :: _ => d =? c | [] => false end.
Definition bucket (l : list str) (c : N) : list str := filter (has_head c) l.
Definition word_index (l : list str) := tabulate (bucket l) ascii.
Definition mem_str_f (l : list str) (idx : @trie (list str)) (s : str) : bool :=
  match s with c :: _ => mem_str s (via (bucket l) idx c) | [] => mem_str s l end.

Lemma mem_str_bucket c s l : mem_str (c :: s) (bucket l c) = mem_str (c :: s) l.
Proof.
  unfold mem_str, bucket. induction l as [|w l IH]; [reflexivity|]. cbn [filter]. destruct (has_head c w) eqn:H; cbn [existsb].
  - now rewrite IH.
  - rewrite IH. destruct w as [|d w]; [reflexivity|]. cbn [str_eqb has_head] in *. now rewrite (N.eqb_sym c d), H.
Qed.

Lemma mem_str_f_eq l s : mem_str_f l (word_index l) s = mem_str s l.
Proof. destruct s as [|c s]; [reflexivity|]. cbn [mem_str_f]. unfold word_index. rewrite via_tabulate. apply mem_str_bucket. Qed.

Lemma lower_fast s : lower s = flat_map lower_f s.
Proof. apply flat_map_ext. intro c. symmetry. apply lower_f_eq. Qed.
