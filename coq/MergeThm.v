(* MergeThm.v — proofs about Merge.v (C15). On well-formed declarations merge runs a decision taken on the two kinds
   (merge_decide); the theorems about its result go through the few decisions. *)
From Coq Require Import NArith ZArith List Bool Lia.
Import ListNotations.
Require Import OPC.gen.GenTables OPC.Uni OPC.Names OPC.NamesThm OPC.PyLit OPC.Values OPC.ValuesThm OPC.Merge.
Open Scope N_scope.

Lemma mkind_eqb_eq a b : mkind_eqb a b = true <-> a = b.
Proof.
  split.
  - destruct a, b; intro H; (reflexivity || discriminate H).
  - intros ->. now destruct b.
Qed.
Lemma mkind_eqb_refl a : mkind_eqb a a = true.
Proof. now apply mkind_eqb_eq. Qed.
Lemma vtype_eqb_refl a : vtype_eqb a a = true.
Proof. now destruct a. Qed.
Lemma vtype_eqb_sym a b : vtype_eqb a b = vtype_eqb b a.
Proof. now destruct a, b. Qed.
Lemma member_eqb_eq a b : member_eqb a b = true <-> a = b.
Proof.
  destruct a as [n1 e1], b as [n2 e2]. unfold member_eqb. cbn [fst snd]. rewrite andb_true_iff, str_eqb_eq, evalue_eqb_eq.
  split; [intros [-> ->]; reflexivity | intros H; injection H as -> ->; auto].
Qed.
Lemma booleqb_sym (a b : bool) : Bool.eqb a b = Bool.eqb b a.
Proof. now destruct a, b. Qed.
Lemma jval_eqb_refl a : jval_eqb a a = true.
Proof. destruct a; cbn [jval_eqb]; unfold fl_eqb; auto using str_eqb_refl, Z.eqb_refl, Bool.eqb_reflx. Qed.
Lemma jval_eqb_sym a b : jval_eqb a b = jval_eqb b a.
Proof. destruct a, b; cbn [jval_eqb]; unfold fl_eqb; auto using str_eqb_sym, Z.eqb_sym, booleqb_sym. Qed.
Lemma value_eqb_sym a b : value_eqb a b = value_eqb b a.
Proof. unfold value_eqb. now rewrite (str_eqb_sym (code a)), (jval_eqb_sym (raw a)). Qed.
Lemma optval_eqb_sym a b : optval_eqb a b = optval_eqb b a.
Proof. destruct a, b; cbn [optval_eqb]; try reflexivity. apply value_eqb_sym. Qed.
Lemma optN_eqb_sym a b : optN_eqb a b = optN_eqb b a.
Proof. destruct a, b; cbn [optN_eqb]; try reflexivity. apply N.eqb_sym. Qed.

Lemma list_eqb_eq {A} (eq : A -> A -> bool) (Heq : forall x y, eq x y = true <-> x = y) :
  forall a b, list_eqb eq a b = true <-> a = b.
Proof.
  induction a as [|x a IH]; intros [|y b]; cbn [list_eqb]; split; intros H; try discriminate H; try reflexivity.
  - apply andb_true_iff in H as [H1 H2]. apply Heq in H1. apply IH in H2. now subst.
  - injection H as -> ->. apply andb_true_iff. split; [now apply Heq | now apply IH].
Qed.
Lemma eqb_eq_sym {A} (eq : A -> A -> bool) (Heq : forall x y, eq x y = true <-> x = y) a b : eq a b = eq b a.
Proof.
  destruct (eq a b) eqn:E.
  - apply Heq in E. subst b. symmetry. now apply Heq.
  - destruct (eq b a) eqn:E'; [|reflexivity]. apply Heq in E'. subst b. rewrite <- E. now apply Heq.
Qed.

Lemma subset_In {A} (eq : A -> A -> bool) (Heq : forall x y, eq x y = true <-> x = y) a b :
  forallb (fun x => existsb (eq x) b) a = true <-> (forall x, In x a -> In x b).
Proof.
  rewrite forallb_forall. split; intros H x Hx; specialize (H x Hx).
  - apply existsb_exists in H as (y & Hy & E). apply Heq in E. now subst.
  - apply existsb_exists. exists x. split; [exact H | now apply Heq].
Qed.
Lemma subset_members_In a b : subset_members a b = true <-> (forall x, In x a -> In x b).
Proof. apply (subset_In member_eqb member_eqb_eq). Qed.
Lemma subset_evalues_In a b : subset_evalues a b = true <-> (forall x, In x a -> In x b).
Proof. apply (subset_In evalue_eqb evalue_eqb_eq). Qed.
Lemma subset_members_refl a : subset_members a a = true.
Proof. apply subset_members_In. auto. Qed.
Lemma subset_evalues_refl a : subset_evalues a a = true.
Proof. apply subset_evalues_In. auto. Qed.

Lemma nonempty_negb {A} (v : list A) : negb (match v with [] => true | _ => false end) = true <-> v <> [].
Proof. destruct v; cbn; split; intros H; congruence. Qed.

Scheme mprop_mut := Induction for mprop Sort Prop
  with mpayload_mut := Induction for mpayload Sort Prop.
Lemma mprop_ind' (P : mprop -> Prop) :
  (forall p, (forall i, mp_pl p = PL_list i -> P i) -> P p) -> forall p, P p.
Proof.
  intros H. apply (mprop_mut P (fun pl => forall i, pl = PL_list i -> P i)); try (intros; discriminate).
  - intros k r d ds e pl IH. apply H. exact IH.
  - intros inner IH i Hi. injection Hi as <-. exact IH.
Qed.

Definition conv_of (o : oracles) (cur ov : mprop) : result :=
  match mp_dflt ov with Some d => convert_value o (ckind_of cur) (raw d) | None => Ok None end.
Lemma common_cons o cur ov ext : common o cur (ov :: ext) =
  match conv_of o cur ov with
  | Err => MErr | Crash => MCrash
  | Ok od => match cur with
             | MP k r d ds e pl =>
               common o (MP k (r || mp_required ov) (or_opt od d) (or_opt (mp_descr ov) ds) (or_opt (mp_example ov) e) pl) ext
             end
  end.
Proof. reflexivity. Qed.

Lemma common_spec o : forall ext cur r, common o cur ext = MOk r ->
  mp_kind r = mp_kind cur /\ mp_pl r = mp_pl cur /\ mp_required r = mp_required cur || existsb mp_required ext.
Proof.
  induction ext as [|ov ext IH]; intros cur r H.
  - cbn [common] in H. injection H as <-. cbn [existsb]. now rewrite orb_false_r.
  - rewrite common_cons in H. destruct (conv_of o cur ov) as [od| |]; try discriminate H.
    destruct cur as [k rq d ds e pl]. apply IH in H. cbn [mp_kind mp_pl mp_required existsb] in *.
    destruct H as (Hk & Hp & Hr). repeat split; auto. rewrite Hr. now rewrite orb_assoc.
Qed.

Definition like (r b : mprop) : Prop := mp_kind r = mp_kind b /\ mp_pl r = mp_pl b.

Lemma common_like o b ext r : common o b ext = MOk r -> like r b.
Proof. intro H. destruct (common_spec o _ _ _ H) as (Hk & Hp & _). now split. Qed.

Lemma req_first o (p q b : mprop) (again : bool) r :
  common o b (if again then [p; q] else [q]) = MOk r ->
  mp_required b = mp_required p \/ (again = true /\ mp_required b = mp_required q) ->
  mp_required r = mp_required p || mp_required q.
Proof.
  intros H E. destruct (common_spec o _ _ _ H) as (_ & _ & ->).
  destruct E as [-> | [-> ->]]; [destruct again|]; cbn [existsb]; destruct (mp_required p), (mp_required q); reflexivity.
Qed.
Lemma req_second o p q r : common o q [p; q] = MOk r -> mp_required r = mp_required p || mp_required q.
Proof. intro H. exact (req_first o p q q true r H (or_intror (conj eq_refl eq_refl))). Qed.

Lemma like_wf r b : like r b -> wf_mprop r = wf_mprop b.
Proof. destruct r, b. unfold like. cbn [mp_kind mp_pl]. intros [-> ->]. reflexivity. Qed.

Definition set_pl (p : mprop) (pl : mpayload) : mprop := match p with MP k r d ds e _ => MP k r d ds e pl end.
Lemma set_pl_kind p pl : mp_kind (set_pl p pl) = mp_kind p.
Proof. now destruct p. Qed.
Lemma set_pl_pl p pl : mp_pl (set_pl p pl) = pl.
Proof. now destruct p. Qed.
Lemma set_pl_required p pl : mp_required (set_pl p pl) = mp_required p.
Proof. now destruct p. Qed.

Definition pl_sub (a b : mpayload) : bool :=
  match a, b with
  | PL_enum _ v1 _, PL_enum _ v2 _ => subset_members v1 v2
  | PL_litenum _ v1 _, PL_litenum _ v2 _ => subset_evalues v1 v2
  | _, _ => false
  end.
Definition retable (a b : mpayload) : mpayload :=
  match a, b with
  | PL_enum vt _ _, PL_enum _ v c => PL_enum vt v c
  | PL_litenum vt _ _, PL_litenum _ v c => PL_litenum vt v c
  | _, _ => a
  end.
Definition list_pair (p q : mprop) : option (mprop * mprop) :=
  match mp_pl p, mp_pl q with PL_list i1, PL_list i2 => Some (i1, i2) | _, _ => None end.

(* _merge_same_type *)
Definition merge_same (o : oracles) (p q : mprop) : mres :=
  if mprop_eqb p q then MOk p
  else match list_pair p q with
       | Some (i1, i2) =>
           match merge o i1 i2 with MOk i => common o (set_pl p (PL_list i)) [q] | MErr => MErr | MCrash => MCrash end
       | None => common o p [q]
       end.

(* DFirst again: the first declaration is completed (again: replayed over itself first); DSecond: the second, both replayed *)
Inductive kdec := DFirst (again : bool) | DSecond | DBoth | DSame | DErr.

Definition accepts (k : mkind) (v : option vtype) : bool :=
  match v with
  | Some vt => (mkind_eqb k MInt && vtype_eqb vt VInt) || (mkind_eqb k MStr && vtype_eqb vt VStr)
  | None => false
  end.
Definition enum_decide (E k1 k2 : mkind) (v1 v2 : option vtype) : kdec :=
  if mkind_eqb k1 E then (if mkind_eqb k2 E then DBoth else if accepts k2 v1 then DFirst true else DErr)
  else if mkind_eqb k2 E && accepts k1 v2 then DSecond else DErr.

Inductive kdec0 := K0First | K0Second | K0Enum | K0Lit | K0Same | K0Err.
Definition kdecide0 (k1 k2 : mkind) : kdec0 :=
  if mkind_eqb k2 MAny then K0First
  else if mkind_eqb k1 MAny then K0Second
  else if mkind_eqb k1 MEnum || mkind_eqb k2 MEnum then K0Enum
  else if mkind_eqb k1 MLitEnum || mkind_eqb k2 MLitEnum then K0Lit
  else if mkind_eqb k1 k2 then K0Same
  else if mkind_eqb k1 MInt && mkind_eqb k2 MFloat then K0First
  else if mkind_eqb k2 MInt && mkind_eqb k1 MFloat then K0Second
  else if mkind_eqb k1 MStr && is_fmt k2 then K0Second
  else if mkind_eqb k2 MStr && is_fmt k1 then K0First
  else K0Err.
Definition kdecide (k1 k2 : mkind) (v1 v2 : option vtype) : kdec :=
  match kdecide0 k1 k2 with
  | K0First => DFirst false
  | K0Second => DSecond
  | K0Enum => enum_decide MEnum k1 k2 v1 v2
  | K0Lit => enum_decide MLitEnum k1 k2 v1 v2
  | K0Same => DSame
  | K0Err => DErr
  end.

Definition run_dec (o : oracles) (p q : mprop) (d : kdec) : mres :=
  match d with
  | DFirst again => common o p (if again then [p; q] else [q])
  | DSecond => common o q [p; q]
  | DBoth => if pl_sub (mp_pl p) (mp_pl q) then common o p [q]
             else if pl_sub (mp_pl q) (mp_pl p) then common o (set_pl p (retable (mp_pl p) (mp_pl q))) [q] else MErr
  | DSame => merge_same o p q
  | DErr => MErr
  end.

(* what merge_with_enum (E = MEnum) and merge_with_litenum (E = MLitEnum) match on *)
Definition in_fam (E : mkind) (p : mprop) : bool :=
  match E, mp_kind p, mp_pl p with
  | MEnum, MEnum, PL_enum _ _ _ | MLitEnum, MLitEnum, PL_litenum _ _ _ => true
  | _, _, _ => false
  end.
Definition fam_run (E : mkind) (o : oracles) (p q : mprop) : mres :=
  match in_fam E p, in_fam E q with
  | true, true => run_dec o p q DBoth
  | true, false => if accepts (mp_kind q) (vt_of p) then common o p [p; q] else MErr
  | false, true => if accepts (mp_kind p) (vt_of q) then common o q [p; q] else MErr
  | false, false => MErr
  end.

Lemma mwe_fam o p q : merge_with_enum o p q = fam_run MEnum o p q.
Proof.
  destruct p as [k1 r1 d1 ds1 e1 pl1], q as [k2 r2 d2 ds2 e2 pl2].
  destruct k1; try (destruct k2; try reflexivity; destruct pl2; reflexivity).
  destruct pl1; destruct k2; try reflexivity; destruct pl2; reflexivity.
Qed.
Lemma mwl_fam o p q : merge_with_litenum o p q = fam_run MLitEnum o p q.
Proof.
  destruct p as [k1 r1 d1 ds1 e1 pl1], q as [k2 r2 d2 ds2 e2 pl2].
  destruct k1; try (destruct k2; try reflexivity; destruct pl2; reflexivity).
  destruct pl1; destruct k2; try reflexivity; destruct pl2; reflexivity.
Qed.

Lemma merge_unfold o p q : merge o p q =
  match kdecide0 (mp_kind p) (mp_kind q) with
  | K0First => common o p [q]
  | K0Second => common o q [p; q]
  | K0Enum => fam_run MEnum o p q
  | K0Lit => fam_run MLitEnum o p q
  | K0Same => merge_same o p q
  | K0Err => MErr
  end.
Proof.
  rewrite <- mwe_fam, <- mwl_fam. destruct p as [k r d ds e pl]. unfold kdecide0. cbn [merge mp_kind].
  destruct (mkind_eqb (mp_kind q) MAny); [reflexivity|].
  destruct (mkind_eqb k MAny); [reflexivity|].
  destruct (mkind_eqb k MEnum || mkind_eqb (mp_kind q) MEnum); [reflexivity|].
  destruct (mkind_eqb k MLitEnum || mkind_eqb (mp_kind q) MLitEnum); [reflexivity|].
  destruct (mkind_eqb k (mp_kind q)).
  { unfold merge_same, list_pair. cbn [mp_pl set_pl]. destruct pl; try reflexivity. destruct (mp_pl q); reflexivity. }
  do 3 (destruct (_ && _); [reflexivity|]). destruct (_ && _); reflexivity.
Qed.

Lemma in_fam_wf E p : wf_mprop p = true -> E = MEnum \/ E = MLitEnum -> in_fam E p = mkind_eqb (mp_kind p) E.
Proof. destruct p as [k r d ds e pl]. intros W [-> | ->]; destruct k, pl; (reflexivity || discriminate W). Qed.

Lemma fam_decide E o p q : wf_mprop p = true -> wf_mprop q = true -> E = MEnum \/ E = MLitEnum ->
  fam_run E o p q = run_dec o p q (enum_decide E (mp_kind p) (mp_kind q) (vt_of p) (vt_of q)).
Proof.
  intros Wp Wq HE. unfold fam_run, enum_decide. rewrite (in_fam_wf E p Wp HE), (in_fam_wf E q Wq HE).
  destruct (mkind_eqb (mp_kind p) E), (mkind_eqb (mp_kind q) E); cbn [andb]; try reflexivity.
  - now destruct (accepts (mp_kind q) (vt_of p)).
  - now destruct (accepts (mp_kind p) (vt_of q)).
Qed.

Theorem merge_decide o p q : wf_mprop p = true -> wf_mprop q = true ->
  merge o p q = run_dec o p q (kdecide (mp_kind p) (mp_kind q) (vt_of p) (vt_of q)).
Proof.
  intros Wp Wq. rewrite merge_unfold. unfold kdecide.
  destruct (kdecide0 (mp_kind p) (mp_kind q)); try reflexivity; apply fam_decide; auto.
Qed.

(* facts about the decision are checked by running through all kinds and value types *)
Definition kinds : list mkind :=
  [MAny; MNone; MBool; MInt; MFloat; MStr; MDate; MDateTime; MUuid; MFile; MConst; MEnum; MLitEnum; MList; MUnion; MModel].
Definition vts : list (option vtype) := [None; Some VInt; Some VStr].
Lemma by_kinds (P : mkind -> mkind -> option vtype -> option vtype -> bool) :
  forallb (fun k1 => forallb (fun k2 => forallb (fun v1 => forallb (P k1 k2 v1) vts) vts) kinds) kinds = true ->
  forall k1 k2 v1 v2, P k1 k2 v1 v2 = true.
Proof.
  intros H k1 k2 v1 v2.
  assert (K : forall k, In k kinds) by (destruct k; repeat first [left; reflexivity | right]).
  assert (V : forall v, In v vts) by (destruct v as [[]|]; repeat first [left; reflexivity | right]).
  rewrite forallb_forall in H. specialize (H k1 (K k1)). rewrite forallb_forall in H. specialize (H k2 (K k2)).
  rewrite forallb_forall in H. specialize (H v1 (V v1)). rewrite forallb_forall in H. exact (H v2 (V v2)).
Qed.

Definition okind_eqb (a b : option mkind) : bool :=
  match a, b with Some x, Some y => mkind_eqb x y | None, None => true | _, _ => false end.
Lemma okind_eqb_eq a b : okind_eqb a b = true -> a = b.
Proof. destruct a, b; cbn; try discriminate; [intro H; apply mkind_eqb_eq in H; now subst | reflexivity]. Qed.

Lemma narrow_decide k1 k2 v1 v2 : narrow_kind k1 k2 v1 v2 =
  match kdecide k1 k2 v1 v2 with DErr => None | DSecond => Some k2 | _ => Some k1 end.
Proof. apply okind_eqb_eq. revert k1 k2 v1 v2. apply by_kinds. reflexivity. Qed.

Lemma kdecide_same k1 k2 v1 v2 : kdecide k1 k2 v1 v2 = DSame ->
  k1 = k2 /\ mkind_eqb k1 MEnum || mkind_eqb k1 MLitEnum = false.
Proof.
  intro D.
  pose proof (by_kinds (fun k1 k2 v1 v2 => match kdecide k1 k2 v1 v2 with
                                           | DSame => mkind_eqb k1 k2 && negb (mkind_eqb k1 MEnum || mkind_eqb k1 MLitEnum)
                                           | _ => true
                                           end) eq_refl k1 k2 v1 v2) as H.
  cbv beta in H. rewrite D in H. apply andb_true_iff in H as [E N]. apply mkind_eqb_eq in E. now apply negb_true_iff in N.
Qed.

(* only any/any completes its own first argument both ways *)
Definition swapped (d d' : kdec) : bool :=
  match d, d' with
  | DFirst _, DSecond | DSecond, DFirst _ | DBoth, DBoth | DSame, DSame | DErr, DErr => true
  | _, _ => false
  end.
Lemma kdecide_swap k1 k2 v1 v2 :
  swapped (kdecide k1 k2 v1 v2) (kdecide k2 k1 v2 v1) || (mkind_eqb k1 MAny && mkind_eqb k2 MAny) = true.
Proof. revert k1 k2 v1 v2. apply by_kinds. reflexivity. Qed.

Lemma merge_same_inv o p q r : merge_same o p q = MOk r ->
  (mprop_eqb p q = true /\ r = p) \/
  (mprop_eqb p q = false /\
   match list_pair p q with
   | Some (i1, i2) => exists i, merge o i1 i2 = MOk i /\ common o (set_pl p (PL_list i)) [q] = MOk r
   | None => common o p [q] = MOk r
   end).
Proof.
  unfold merge_same. destruct (mprop_eqb p q).
  - intros [= <-]. now left.
  - intro H. right. split; [reflexivity|]. destruct (list_pair p q) as [[i1 i2]|]; [|exact H].
    destruct (merge o i1 i2) as [i| |]; try discriminate H. now exists i.
Qed.
Lemma list_pair_some p q i1 i2 : list_pair p q = Some (i1, i2) -> mp_pl p = PL_list i1 /\ mp_pl q = PL_list i2.
Proof.
  unfold list_pair. destruct (mp_pl p); try discriminate. destruct (mp_pl q); try discriminate.
  intros [= -> ->]. now split.
Qed.
Lemma list_pair_swap p q : list_pair q p = match list_pair p q with Some (i1, i2) => Some (i2, i1) | None => None end.
Proof. unfold list_pair. destruct (mp_pl p), (mp_pl q); reflexivity. Qed.

Lemma both_inv o p q r : run_dec o p q DBoth = MOk r ->
  (pl_sub (mp_pl p) (mp_pl q) = true /\ like r p) \/
  (pl_sub (mp_pl p) (mp_pl q) = false /\ pl_sub (mp_pl q) (mp_pl p) = true /\
   like r (set_pl p (retable (mp_pl p) (mp_pl q)))).
Proof.
  cbn [run_dec]. destruct (pl_sub (mp_pl p) (mp_pl q)); [|destruct (pl_sub (mp_pl q) (mp_pl p))]; intro H; try discriminate H;
    [left|right]; repeat (split; [reflexivity|]); exact (common_like _ _ _ _ H).
Qed.

Lemma if_ok (c : bool) (x : mres) r : (if c then x else MErr) = MOk r -> x = MOk r.
Proof. now destruct c. Qed.

Lemma fam_required E o p q r : fam_run E o p q = MOk r -> mp_required r = mp_required p || mp_required q.
Proof.
  unfold fam_run. destruct (in_fam E p), (in_fam E q); cbn [run_dec]; intro H.
  - destruct (pl_sub (mp_pl p) (mp_pl q)); [exact (req_first o p q p false r H (or_introl eq_refl))|].
    exact (req_first o p q _ false r (if_ok _ _ _ H) (or_introl (set_pl_required _ _))).
  - exact (req_first o p q p true r (if_ok _ _ _ H) (or_introl eq_refl)).
  - exact (req_second o p q r (if_ok _ _ _ H)).
  - discriminate H.
Qed.

Lemma mprop_eqb_required p q : mprop_eqb p q = true -> mp_required p = mp_required q.
Proof.
  destruct p as [k1 r1 d1 ds1 e1 pl1], q as [k2 r2 d2 ds2 e2 pl2]. cbn [mprop_eqb mp_required]. intro H.
  do 4 apply andb_true_iff in H as [H _]. apply andb_true_iff in H as [_ H]. now apply Bool.eqb_prop.
Qed.
Lemma merge_same_required o p q r : merge_same o p q = MOk r -> mp_required r = mp_required p || mp_required q.
Proof.
  intro H. destruct (merge_same_inv o p q r H) as [[E ->]|[_ X]].
  - rewrite <- (mprop_eqb_required p q E). now destruct (mp_required p).
  - destruct (list_pair p q) as [[i1 i2]|].
    + destruct X as (i & _ & C). exact (req_first o p q _ false r C (or_introl (set_pl_required _ _))).
    + exact (req_first o p q p false r X (or_introl eq_refl)).
Qed.

(* no well-formedness here, so not through merge_decide *)
Theorem merge_required_or : forall o p q r,
  merge o p q = MOk r -> mp_required r = mp_required p || mp_required q.
Proof.
  intros o p q r H. rewrite merge_unfold in H. destruct (kdecide0 (mp_kind p) (mp_kind q)).
  - exact (req_first o p q p false r H (or_introl eq_refl)).
  - exact (req_second o p q r H).
  - exact (fam_required _ o p q r H).
  - exact (fam_required _ o p q r H).
  - exact (merge_same_required o p q r H).
  - discriminate H.
Qed.

Lemma run_kind o p q d r : run_dec o p q d = MOk r -> mp_kind r = match d with DSecond => mp_kind q | _ => mp_kind p end.
Proof.
  destruct d; intro H.
  - exact (proj1 (common_like _ _ _ _ H)).
  - exact (proj1 (common_like _ _ _ _ H)).
  - destruct (both_inv o p q r H) as [[_ [K _]]|(_ & _ & [K _])]; rewrite K; [reflexivity | apply set_pl_kind].
  - destruct (merge_same_inv o p q r H) as [[_ ->]|[_ X]]; [reflexivity|].
    destruct (list_pair p q) as [[i1 i2]|].
    + destruct X as (i & _ & C). rewrite (proj1 (common_like _ _ _ _ C)). apply set_pl_kind.
    + exact (proj1 (common_like _ _ _ _ X)).
  - discriminate H.
Qed.

Theorem merge_kind_narrowest : forall o p q r,
  wf_mprop p = true -> wf_mprop q = true -> merge o p q = MOk r ->
  narrow_kind (mp_kind p) (mp_kind q) (vt_of p) (vt_of q) = Some (mp_kind r).
Proof.
  intros o p q r Wp Wq H. rewrite merge_decide in H by assumption. rewrite narrow_decide, (run_kind _ _ _ _ _ H).
  destruct (kdecide (mp_kind p) (mp_kind q) (vt_of p) (vt_of q)); try reflexivity. discriminate H.
Qed.

Lemma merge_incompatible o p q : wf_mprop p = true -> wf_mprop q = true ->
  narrow_kind (mp_kind p) (mp_kind q) (vt_of p) (vt_of q) = None -> merge o p q = MErr.
Proof.
  intros Wp Wq N. rewrite merge_decide by assumption. rewrite narrow_decide in N.
  now destruct (kdecide (mp_kind p) (mp_kind q) (vt_of p) (vt_of q)).
Qed.

Lemma narrow_kind_none_sym k1 k2 v1 v2 : narrow_kind k1 k2 v1 v2 = None -> narrow_kind k2 k1 v2 v1 = None.
Proof.
  rewrite !narrow_decide. destruct (orb_prop _ _ (kdecide_swap k1 k2 v1 v2)) as [S|A].
  - destruct (kdecide k1 k2 v1 v2), (kdecide k2 k1 v2 v1); intro N; try discriminate N; try discriminate S; reflexivity.
  - apply andb_true_iff in A as [A B]. apply mkind_eqb_eq in A, B. subst. discriminate.
Qed.

Theorem merge_incompatible_symmetric : forall o p q,
  wf_mprop p = true -> wf_mprop q = true ->
  narrow_kind (mp_kind p) (mp_kind q) (vt_of p) (vt_of q) = None ->
  merge o p q = MErr /\ merge o q p = MErr.
Proof.
  intros o p q Hwp Hwq Hn. split; apply merge_incompatible; try assumption. now apply narrow_kind_none_sym.
Qed.

Lemma wf_list p i : wf_mprop p = true -> mp_pl p = PL_list i -> mp_kind p = MList /\ wf_mprop i = true.
Proof. destruct p as [k r d ds e pl]. cbn [mp_pl mp_kind]. intros W ->. destruct k; try discriminate W. now split. Qed.
Lemma wf_set_list p i : mp_kind p = MList -> wf_mprop (set_pl p (PL_list i)) = wf_mprop i.
Proof. destruct p. cbn [mp_kind set_pl]. intros ->. reflexivity. Qed.
Lemma wf_any p : wf_mprop p = true -> mp_kind p = MAny -> mp_pl p = PL_none.
Proof. destruct p as [k r d ds e pl]. cbn [mp_pl mp_kind]. intros W ->. destruct pl; (reflexivity || discriminate W). Qed.

Lemma retable_wf p q : wf_mprop p = true -> wf_mprop q = true -> pl_sub (mp_pl q) (mp_pl p) = true ->
  wf_mprop (set_pl p (retable (mp_pl p) (mp_pl q))) = true.
Proof.
  destruct p as [k1 r1 d1 ds1 e1 pl1], q as [k2 r2 d2 ds2 e2 pl2]. cbn [mp_pl set_pl]. intros Wp Wq S.
  destruct pl1, pl2; try discriminate S; destruct k1; try discriminate Wp; destruct k2; try discriminate Wq.
  all: cbn [pl_sub retable wf_mprop mp_kind mp_pl] in *.
  all: apply andb_true_iff in Wp as [_ T1]; apply andb_true_iff in Wq as [N2 _]; rewrite N2; cbn [andb].
  all: rewrite forallb_forall in *; rewrite ?subset_members_In, ?subset_evalues_In in S; auto.
Qed.

Theorem merge_wf : forall o p q r,
  wf_mprop p = true -> wf_mprop q = true -> merge o p q = MOk r -> wf_mprop r = true.
Proof.
  intros o p. induction p as [p IH] using mprop_ind'. intros q r Wp Wq H.
  rewrite merge_decide in H by assumption.
  destruct (kdecide (mp_kind p) (mp_kind q) (vt_of p) (vt_of q)).
  - now rewrite (like_wf _ _ (common_like _ _ _ _ H)).
  - now rewrite (like_wf _ _ (common_like _ _ _ _ H)).
  - destruct (both_inv o p q r H) as [[_ L]|(_ & S & L)]; rewrite (like_wf _ _ L); [exact Wp | exact (retable_wf p q Wp Wq S)].
  - destruct (merge_same_inv o p q r H) as [[_ ->]|[_ X]]; [exact Wp|].
    destruct (list_pair p q) as [[i1 i2]|] eqn:L; [|now rewrite (like_wf _ _ (common_like _ _ _ _ X))].
    destruct X as (i & M & C). destruct (list_pair_some _ _ _ _ L) as [P1 P2].
    destruct (wf_list p i1 Wp P1) as [Kp W1], (wf_list q i2 Wq P2) as [_ W2].
    rewrite (like_wf _ _ (common_like _ _ _ _ C)), (wf_set_list p i Kp). exact (IH i1 P1 i2 i W1 W2 M).
  - discriminate H.
Qed.

Lemma ty_eqb_unfold a b : ty_eqb a b =
  mkind_eqb (mp_kind a) (mp_kind b) &&
  match mp_pl a, mp_pl b with
  | PL_none, PL_none => true
  | PL_enum vt1 v1 c1, PL_enum vt2 v2 c2 => vtype_eqb vt1 vt2 && same_set_members v1 v2 && str_eqb c1 c2
  | PL_litenum vt1 v1 c1, PL_litenum vt2 v2 c2 => vtype_eqb vt1 vt2 && same_set_evalues v1 v2 && str_eqb c1 c2
  | PL_list i1, PL_list i2 => ty_eqb i1 i2
  | PL_const c1, PL_const c2 => jval_eqb c1 c2
  | PL_union _ i1, PL_union _ i2 => i1 =? i2
  | PL_model i1, PL_model i2 => i1 =? i2
  | _, _ => false
  end.
Proof. destruct a; reflexivity. Qed.

Lemma like_ty r1 r2 b1 b2 : like r1 b1 -> like r2 b2 -> ty_eqb r1 r2 = ty_eqb b1 b2.
Proof. intros [K1 P1] [K2 P2]. rewrite (ty_eqb_unfold r1 r2), (ty_eqb_unfold b1 b2), K1, P1, K2, P2. reflexivity. Qed.

Lemma ty_eqb_refl : forall a, ty_eqb a a = true.
Proof.
  induction a as [a IH] using mprop_ind'. rewrite ty_eqb_unfold, mkind_eqb_refl. cbn [andb].
  destruct (mp_pl a) as [|vt v c|vt v c|i|cv|ms id|id] eqn:E.
  - reflexivity.
  - unfold same_set_members. now rewrite vtype_eqb_refl, subset_members_refl, str_eqb_refl.
  - unfold same_set_evalues. now rewrite vtype_eqb_refl, subset_evalues_refl, str_eqb_refl.
  - apply IH. reflexivity.
  - apply jval_eqb_refl.
  - apply N.eqb_refl.
  - apply N.eqb_refl.
Qed.

Lemma mprop_eqb_sym : forall a b, mprop_eqb a b = mprop_eqb b a.
Proof.
  induction a as [a IH] using mprop_ind'. intros b.
  destruct a as [k1 r1 d1 ds1 e1 pl1], b as [k2 r2 d2 ds2 e2 pl2]. cbn [mprop_eqb]. cbn [mp_pl] in IH.
  rewrite (eqb_eq_sym mkind_eqb mkind_eqb_eq k1 k2), (booleqb_sym r1 r2), (optval_eqb_sym d1 d2), (optN_eqb_sym ds1 ds2), (optN_eqb_sym e1 e2).
  f_equal.
  destruct pl1 as [|vt1 v1 c1|vt1 v1 c1|i1|cv1|ms1 id1|id1], pl2 as [|vt2 v2 c2|vt2 v2 c2|i2|cv2|ms2 id2|id2]; try reflexivity.
  - now rewrite (vtype_eqb_sym vt1 vt2), (eqb_eq_sym _ (list_eqb_eq member_eqb member_eqb_eq) v1 v2), (str_eqb_sym c1 c2).
  - now rewrite (vtype_eqb_sym vt1 vt2), (eqb_eq_sym _ (list_eqb_eq evalue_eqb evalue_eqb_eq) v1 v2), (str_eqb_sym c1 c2).
  - apply IH. reflexivity.
  - apply jval_eqb_sym.
  - apply N.eqb_sym.
  - apply N.eqb_sym.
Qed.

Lemma mprop_eqb_ty : forall a b, mprop_eqb a b = true -> ty_eqb a b = true.
Proof.
  induction a as [a IH] using mprop_ind'. intros b H.
  destruct a as [k1 r1 d1 ds1 e1 pl1], b as [k2 r2 d2 ds2 e2 pl2]. cbn [mprop_eqb] in H. cbn [mp_pl] in IH.
  apply andb_true_iff in H as [H Hpl]. do 4 apply andb_true_iff in H as [H _].
  rewrite ty_eqb_unfold. cbn [mp_kind mp_pl]. rewrite H. cbn [andb].
  destruct pl1 as [|vt1 v1 c1|vt1 v1 c1|i1|cv1|ms1 id1|id1], pl2 as [|vt2 v2 c2|vt2 v2 c2|i2|cv2|ms2 id2|id2];
    try discriminate Hpl; try exact Hpl.
  - apply andb_true_iff in Hpl as [Hpl Hc]. apply andb_true_iff in Hpl as [Hvt Hl].
    apply (list_eqb_eq member_eqb member_eqb_eq) in Hl. subst v2.
    unfold same_set_members. now rewrite Hvt, Hc, subset_members_refl.
  - apply andb_true_iff in Hpl as [Hpl Hc]. apply andb_true_iff in Hpl as [Hvt Hl].
    apply (list_eqb_eq evalue_eqb evalue_eqb_eq) in Hl. subst v2.
    unfold same_set_evalues. now rewrite Hvt, Hc, subset_evalues_refl.
  - apply IH; [reflexivity | exact Hpl].
Qed.

Lemma same_kind_ty p q :
  wf_mprop p = true -> wf_mprop q = true -> mp_kind p = mp_kind q -> g_merge p q = true ->
  mkind_eqb (mp_kind p) MEnum || mkind_eqb (mp_kind p) MLitEnum = false -> list_pair p q = None -> ty_eqb p q = true.
Proof.
  destruct p as [k r1 d1 ds1 e1 pl1], q as [k2 r2 d2 ds2 e2 pl2]. cbn [mp_kind]. intros Wp Wq <- G NE L.
  destruct k, pl1; try discriminate Wp; try discriminate NE.
  all: destruct pl2; try discriminate Wq; try discriminate L.
  all: reflexivity || exact G.
Qed.

Lemma typed_inj vt1 vt2 e : ev_has_type vt1 e = true -> ev_has_type vt2 e = true -> vt1 = vt2.
Proof. destruct vt1, vt2, e; (reflexivity || discriminate). Qed.

(* a value of the non-empty smaller table is in both, and has one type *)
Lemma sub_vt p q : wf_mprop p = true -> wf_mprop q = true -> pl_sub (mp_pl p) (mp_pl q) = true -> vt_of p = vt_of q.
Proof.
  destruct p as [k1 r1 d1 ds1 e1 pl1], q as [k2 r2 d2 ds2 e2 pl2]. unfold vt_of. cbn [mp_pl]. intros Wp Wq S.
  destruct pl1 as [|vt1 v1 c1|vt1 v1 c1| | | |], pl2 as [|vt2 v2 c2|vt2 v2 c2| | | |]; try discriminate S;
    destruct k1; try discriminate Wp; destruct k2; try discriminate Wq.
  all: cbn [pl_sub wf_mprop mp_kind mp_pl] in *.
  all: apply andb_true_iff in Wp as [N1 T1]; apply andb_true_iff in Wq as [_ T2].
  all: destruct v1 as [|m v1]; [discriminate N1|].
  all: rewrite forallb_forall in T1, T2; rewrite ?subset_members_In, ?subset_evalues_In in S.
  all: f_equal; exact (typed_inj _ _ _ (T1 m (or_introl eq_refl)) (T2 m (S m (or_introl eq_refl)))).
Qed.

Lemma g_merge_list p q i1 i2 : mp_pl p = PL_list i1 -> mp_pl q = PL_list i2 -> g_merge p q = g_merge i1 i2.
Proof. destruct p. cbn [mp_pl g_merge]. intros -> ->. reflexivity. Qed.

Lemma both_sym o p q x1 x2 :
  wf_mprop p = true -> wf_mprop q = true -> g_merge p q = true ->
  run_dec o p q DBoth = MOk x1 -> run_dec o q p DBoth = MOk x2 -> ty_eqb x1 x2 = true.
Proof.
  intros Wp Wq G H1 H2.
  assert (Hvt : pl_sub (mp_pl p) (mp_pl q) = true \/ pl_sub (mp_pl q) (mp_pl p) = true -> vt_of p = vt_of q).
  { intros [E|E]; [exact (sub_vt p q Wp Wq E) | symmetry; exact (sub_vt q p Wq Wp E)]. }
  (* equal sets: each result keeps its own first argument, and the guard makes the classes equal;
     otherwise both results carry the smaller table with its class *)
  destruct (both_inv o p q x1 H1) as [[S12 L1]|(S12 & S21 & L1)], (both_inv o q p x2 H2) as [[S21' L2]|(S21' & S12' & L2)];
    rewrite (like_ty _ _ _ _ L1 L2); try congruence; clear H1 H2 L1 L2.
  all: pose proof (Hvt ltac:(auto)) as Evt; clear Hvt; unfold vt_of in Evt.
  all: destruct p as [k1 r1 d1 ds1 e1 pl1], q as [k2 r2 d2 ds2 e2 pl2]; cbn [mp_pl set_pl] in *.
  all: destruct pl1, pl2; try discriminate S12; try discriminate S21'.
  all: destruct k1; try discriminate Wp; destruct k2; try discriminate Wq; injection Evt as ->.
  all: cbn [ty_eqb g_merge pl_sub retable mp_kind mp_pl mkind_eqb andb] in *; unfold same_set_members, same_set_evalues in *.
  all: rewrite ?S12, ?S21', ?subset_members_refl, ?subset_evalues_refl, ?str_eqb_refl, ?vtype_eqb_refl in *.
  all: cbn [andb negb orb] in *; (reflexivity || exact G).
Qed.

Theorem merge_type_symmetric : forall o p q r1 r2,
  wf_mprop p = true -> wf_mprop q = true -> g_merge p q = true ->
  merge o p q = MOk r1 -> merge o q p = MOk r2 -> ty_eqb r1 r2 = true.
Proof.
  intros o p. induction p as [p IH] using mprop_ind'. intros q r1 r2 Wp Wq G H1 H2.
  rewrite merge_decide in H1, H2 by assumption.
  destruct (orb_prop _ _ (kdecide_swap (mp_kind p) (mp_kind q) (vt_of p) (vt_of q))) as [S|A].
  2:{ apply andb_true_iff in A as [Kp Kq]. apply mkind_eqb_eq in Kp, Kq. rewrite Kp, Kq in H1, H2. cbn [kdecide mkind_eqb run_dec] in H1, H2.
      rewrite (like_ty _ _ _ _ (common_like _ _ _ _ H1) (common_like _ _ _ _ H2)).
      rewrite ty_eqb_unfold, Kp, Kq, (wf_any p Wp Kp), (wf_any q Wq Kq). reflexivity. }
  destruct (kdecide (mp_kind p) (mp_kind q) (vt_of p) (vt_of q)) eqn:D1,
           (kdecide (mp_kind q) (mp_kind p) (vt_of q) (vt_of p)); try discriminate S.
  - rewrite (like_ty _ _ _ _ (common_like _ _ _ _ H1) (common_like _ _ _ _ H2)). apply ty_eqb_refl.
  - rewrite (like_ty _ _ _ _ (common_like _ _ _ _ H1) (common_like _ _ _ _ H2)). apply ty_eqb_refl.
  - exact (both_sym o p q r1 r2 Wp Wq G H1 H2).
  - destruct (kdecide_same _ _ _ _ D1) as [K NE].
    destruct (merge_same_inv o p q r1 H1) as [[E ->]|[E X1]], (merge_same_inv o q p r2 H2) as [[E' ->]|[E' X2]];
      rewrite (mprop_eqb_sym q p) in E'; try congruence; [exact (mprop_eqb_ty p q E)|].
    rewrite list_pair_swap in X2. destruct (list_pair p q) as [[i1 i2]|] eqn:L.
    + destruct X1 as (j1 & M1 & C1), X2 as (j2 & M2 & C2). destruct (list_pair_some _ _ _ _ L) as [P1 P2].
      destruct (wf_list p i1 Wp P1) as [_ W1], (wf_list q i2 Wq P2) as [_ W2].
      rewrite (g_merge_list p q i1 i2 P1 P2) in G.
      rewrite (like_ty _ _ _ _ (common_like _ _ _ _ C1) (common_like _ _ _ _ C2)).
      rewrite ty_eqb_unfold, !set_pl_kind, !set_pl_pl, K, mkind_eqb_refl. exact (IH i1 P1 i2 j1 j2 W1 W2 G M1 M2).
    + rewrite (like_ty _ _ _ _ (common_like _ _ _ _ X1) (common_like _ _ _ _ X2)).
      exact (same_kind_ty p q Wp Wq K G NE L).
  - discriminate H1.
Qed.


Theorem merge_first_wins_refuted : exists o p q r1 r2,
  wf_mprop p = true /\ wf_mprop q = true /\ g_merge p q = false /\
  merge o p q = MOk r1 /\ merge o q p = MOk r2 /\ ty_eqb r1 r2 = false.
Proof.
  exists dummy_oracles, (MP MModel false None None None (PL_model 0)), (MP MModel false None None None (PL_model 1)),
         (MP MModel false None None None (PL_model 0)), (MP MModel false None None None (PL_model 1)).
  vm_compute. repeat split; reflexivity.
Qed.

Example merge_nonvacuous : exists o p q r,
  wf_mprop p = true /\ wf_mprop q = true /\ g_merge p q = true /\ mp_kind p <> mp_kind q /\ merge o p q = MOk r.
Proof.
  exists dummy_oracles, (MP MInt false None None None PL_none), (MP MFloat true None None None PL_none),
         (MP MInt true None None None PL_none).
  repeat split; try reflexivity. cbn. discriminate.
Qed.

Definition cstep (o : oracles) (acc : option (list (str * mprop))) (np : str * mprop) : option (list (str * mprop)) :=
  match acc with Some ps => add_prop o ps (fst np) (snd np) | None => None end.
Lemma collect_eq o ins : collect o ins = fold_left (cstep o) ins (Some []).
Proof. reflexivity. Qed.
Lemma fold_cstep_none o ins : fold_left (cstep o) ins None = None.
Proof. induction ins as [|np ins IH]; cbn [fold_left cstep]; auto. Qed.

Lemma add_prop_names o : forall acc n1 p1 acc', add_prop o acc n1 p1 = Some acc' ->
  (In n1 (map fst acc) /\ map fst acc' = map fst acc) \/
  (~ In n1 (map fst acc) /\ map fst acc' = map fst acc ++ [n1]).
Proof.
  induction acc as [|[n' p'] rest IH]; intros n1 p1 acc' H; cbn [add_prop] in H.
  - injection H as <-. right. split; [intros []|reflexivity].
  - destruct (str_eqb n1 n') eqn:E.
    + apply str_eqb_eq in E. subst n'. destruct (merge o p' p1) as [m| |]; try discriminate H. injection H as <-.
      left. cbn [map fst In]. auto.
    + destruct (add_prop o rest n1 p1) as [r|] eqn:Er; try discriminate H. injection H as <-.
      pose proof (str_eqb_false _ _ E) as Hne.
      destruct (IH _ _ _ Er) as [[Hin Hm]|[Hnin Hm]].
      * left. cbn [map fst In]. split; [right; exact Hin| now rewrite Hm].
      * right. cbn [map fst In app]. split; [intros [Heq|Hin]; [congruence|now apply Hnin] | now rewrite Hm].
Qed.

Lemma add_prop_nodup o acc n1 p1 acc' : add_prop o acc n1 p1 = Some acc' -> NoDup (map fst acc) -> NoDup (map fst acc').
Proof. intros H Hnd. destruct (add_prop_names o _ _ _ _ H) as [[_ ->]|[Hni ->]]; [exact Hnd | now apply NoDup_snoc]. Qed.

Lemma collect_names_gen o : forall ins acc out,
  fold_left (cstep o) ins (Some acc) = Some out -> NoDup (map fst acc) ->
  (forall n, In n (map fst out) <-> In n (map fst acc) \/ In n (map fst ins)) /\ NoDup (map fst out).
Proof.
  induction ins as [|[n1 p1] ins IH]; intros acc out H Hnd; cbn [fold_left] in H.
  - injection H as <-. split; [|exact Hnd]. intros n; cbn [map In]; tauto.
  - cbn [cstep fst snd] in H. destruct (add_prop o acc n1 p1) as [acc'|] eqn:Ea.
    2:{ rewrite fold_cstep_none in H. discriminate H. }
    pose proof (add_prop_names o _ _ _ _ Ea) as Hn. pose proof (add_prop_nodup o _ _ _ _ Ea Hnd) as Hnd'.
    destruct (IH _ _ H Hnd') as [Hin Hnd'']. split; [|exact Hnd''].
    intros n. rewrite Hin. cbn [map fst In].
    destruct Hn as [[Hi ->]|[Hni ->]].
    + split; [tauto|]. intros [H0|[<-|H0]]; auto.
    + rewrite in_app_iff. cbn [In]. tauto.
Qed.

Theorem collect_names : forall o ins out,
  collect o ins = Some out ->
  (forall n, In n (map fst out) <-> In n (map fst ins)) /\ NoDup (map fst out).
Proof.
  intros o ins out H. rewrite collect_eq in H.
  destruct (collect_names_gen o ins [] out H (NoDup_nil _)) as [Hin Hnd]. split; [|exact Hnd].
  intros n. rewrite Hin. cbn [map In]. tauto.
Qed.

Definition reqf (n : str) (np : str * mprop) : bool := str_eqb n (fst np) && mp_required (snd np).

Lemma add_prop_req o n : forall acc n1 p1 acc', add_prop o acc n1 p1 = Some acc' ->
  existsb (reqf n) acc' = existsb (reqf n) acc || reqf n (n1, p1).
Proof.
  induction acc as [|[n' p'] rest IH]; intros n1 p1 acc' H; cbn [add_prop] in H.
  - injection H as <-. cbn [existsb orb]. apply orb_false_r.
  - cbn [existsb]. destruct (str_eqb n1 n') eqn:E.
    + apply str_eqb_eq in E. subst n'. destruct (merge o p' p1) as [m| |] eqn:Em; try discriminate H. injection H as <-.
      cbn [existsb]. unfold reqf. cbn [fst snd]. rewrite (merge_required_or _ _ _ _ Em).
      destruct (str_eqb n n1), (mp_required p'), (mp_required p1), (existsb _ rest); reflexivity.
    + destruct (add_prop o rest n1 p1) as [r|] eqn:Er; try discriminate H. injection H as <-.
      cbn [existsb]. rewrite (IH _ _ _ Er). apply orb_assoc.
Qed.

Lemma collect_required_gen o n : forall ins acc out, fold_left (cstep o) ins (Some acc) = Some out ->
  existsb (reqf n) out = existsb (reqf n) acc || existsb (reqf n) ins.
Proof.
  induction ins as [|[n1 p1] ins IH]; intros acc out H; cbn [fold_left] in H.
  - injection H as <-. cbn [existsb]. now rewrite orb_false_r.
  - cbn [cstep fst snd] in H. destruct (add_prop o acc n1 p1) as [acc'|] eqn:Ea.
    2:{ rewrite fold_cstep_none in H. discriminate H. }
    rewrite (IH _ _ H), (add_prop_req o n _ _ _ _ Ea). cbn [existsb]. now rewrite orb_assoc.
Qed.

Lemma reqf_absent n out : ~ In n (map fst out) -> existsb (reqf n) out = false.
Proof.
  induction out as [|[n' p'] out IH]; cbn [map fst In existsb]; intro H; [reflexivity|].
  unfold reqf at 1. cbn [fst]. rewrite (str_eqb_neq n n') by (intros ->; apply H; now left). apply IH. tauto.
Qed.

Lemma reqf_unique n p : forall out, NoDup (map fst out) -> In (n, p) out -> existsb (reqf n) out = mp_required p.
Proof.
  induction out as [|[n' p'] out IH]; cbn [map fst existsb]; intros Hnd Hin; [destruct Hin|].
  inversion Hnd as [|x l Hx Hl]; subst. unfold reqf at 1. cbn [fst snd]. destruct Hin as [E|Hin].
  - injection E as -> ->. rewrite str_eqb_refl, (reqf_absent n out Hx). apply orb_false_r.
  - rewrite (str_eqb_neq n n'), (IH Hl Hin); [reflexivity|]. intros ->. apply Hx. exact (in_map fst _ _ Hin).
Qed.

Theorem collect_required : forall o ins out n p,
  collect o ins = Some out -> In (n, p) out ->
  mp_required p = existsb (fun np => str_eqb n (fst np) && mp_required (snd np)) ins.
Proof.
  intros o ins out n p H Hin. destruct (collect_names o ins out H) as [_ Hnd]. rewrite collect_eq in H.
  rewrite <- (reqf_unique n p out Hnd Hin). exact (collect_required_gen o n ins [] out H).
Qed.



(* pairwise merging is not associative: [int; number; int-enum] folds to the enum, the reversed member list is a diagnostic,
   although every pair is inside the guard (witness of the known finding merge_three_way_order) *)
Definition w_int : mprop := MP MInt false None None None PL_none.
Definition w_float : mprop := MP MFloat false None None None PL_none.
Definition w_enum12 : mprop := MP MEnum false None None None (PL_enum VInt [([65], EInt 1%Z); ([66], EInt 2%Z)] [69]).
Theorem collect_order_refuted : exists o ins out,
  forallb (fun np => wf_mprop (snd np)) ins = true /\
  forallb (fun a => forallb (fun b => g_merge (snd a) (snd b)) ins) ins = true /\
  collect o ins = Some out /\ collect o (rev ins) = None.
Proof.
  exists dummy_oracles, [([97], w_int); ([97], w_float); ([97], w_enum12)].
  eexists. repeat split; vm_compute; reflexivity.
Qed.

(* enum/enum merge that switches to the second enum's class keeps the first declaration's default, whose code names the
   first class (witness of the known finding merge_enum_default_stale_class) *)
Definition w_enum_abc_P : mprop :=
  MP MEnum false (Some {| code := [80; 46; 65]; raw := JStr [97] |}) None None
     (PL_enum VStr [([65], EStr [97]); ([66], EStr [98]); ([67], EStr [99])] [80]).
Definition w_enum_ab_Q : mprop := MP MEnum false None None None (PL_enum VStr [([65], EStr [97]); ([66], EStr [98])] [81]).
Theorem merge_enum_default_stale_refuted : exists o p q r vt vals cls v,
  wf_mprop p = true /\ wf_mprop q = true /\ g_merge p q = true /\ merge o p q = MOk r /\
  mp_pl r = PL_enum vt vals cls /\ mp_dflt r = Some v /\ is_prefix (cls ++ [46]) (code v) = false.
Proof.
  exists dummy_oracles, w_enum_abc_P, w_enum_ab_Q. do 5 eexists. repeat split; vm_compute; reflexivity.
Qed.

Print Assumptions merge_required_or.
Print Assumptions merge_kind_narrowest.
Print Assumptions merge_wf.
Print Assumptions merge_type_symmetric.
Print Assumptions merge_incompatible_symmetric.
Print Assumptions merge_first_wins_refuted.
Print Assumptions collect_names.
Print Assumptions collect_required.
Print Assumptions merge_nonvacuous.
Print Assumptions collect_order_refuted.
Print Assumptions merge_enum_default_stale_refuted.
